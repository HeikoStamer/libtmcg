(* ShuffleUniform: the counting side of C07 for the shuffle generators: the Fisher-Yates map from admissible coin
   vectors to index vectors is a bijection onto the permutations of 0..n-1 (fy_coins_bij: each is reached by exactly
   one coin vector), and its domain has n! elements. *)
From Coq Require Import ZArith NArith List Bool Lia ZifyBool Permutation FinFun Arith.
From LT Require Import ListFacts SamplerModel SamplerLemmas ShuffleModel ShuffleLemmas.
Import ListNotations.
Local Open Scope N_scope.

(* coin c_j of iteration i + j is below n - (i + j): exactly what tmcg_mpz_srandom_mod(n - i) delivers *)
Fixpoint admissible (k i n : nat) (cs : list N) : Prop :=
  match k, cs with
  | O, [] => True
  | S k', c :: cs' => c < N.of_nat (n - i) /\ admissible k' (S i) n cs'
  | _, _ => False
  end.

Fixpoint all_coins (k i n : nat) : list (list N) :=
  match k with
  | O => [[]]
  | S k' => flat_map (fun c => map (cons c) (all_coins k' (S i) n)) (iota (n - i))
  end.

Theorem fy_loop_coins n : forall k i pi s pi' s', fy_loop k i n pi s = Ret (pi', s') ->
  exists cs, draw_coins k i n s = Ret (cs, s') /\ admissible k i n cs /\ fy_coins k i pi cs = Some pi'.
Proof.
  induction k as [|k IH]; intros i pi s pi' s'; cbn [fy_loop draw_coins].
  - intros E. injection E as <- <-. exists []. cbn. auto.
  - destruct (random_mod _ s) as [[c r]| | | | |] eqn:R; cbn [bind fst snd]; try discriminate.
    destruct (swap_idx pi i _) as [pi1| | | | |] eqn:Sw; cbn [bind]; try discriminate.
    intros E. apply IH in E. destruct E as (cs & D & A & F). exists (c :: cs).
    rewrite D. cbn [bind fst snd admissible fy_coins]. rewrite Sw. apply random_mod_range in R. tauto.
Qed.

Theorem coins_fy_loop n : forall k i pi s cs pi' s', draw_coins k i n s = Ret (cs, s') -> fy_coins k i pi cs = Some pi' ->
  fy_loop k i n pi s = Ret (pi', s').
Proof.
  induction k as [|k IH]; intros i pi s cs pi' s'; cbn [fy_loop draw_coins].
  - intros E. injection E as <- <-. cbn. intros E. now injection E as <-.
  - destruct (random_mod _ s) as [[c r]| | | | |] eqn:R; cbn [bind fst snd]; try discriminate.
    destruct (draw_coins k (S i) n r) as [[cs0 s0]| | | | |] eqn:D; cbn [bind fst snd]; try discriminate.
    intros E. injection E as <- <-. cbn [fy_coins].
    destruct (swap_idx pi i _) as [pi1| | | | |] eqn:Sw; try discriminate. cbn [bind]. intros F. eapply IH; eassumption.
Qed.

Lemma draw_coins_admissible n : forall k i s cs s', draw_coins k i n s = Ret (cs, s') -> admissible k i n cs.
Proof.
  induction k as [|k IH]; intros i s cs s'; cbn [draw_coins].
  - intros E. injection E as <- <-. exact I.
  - intros E. apply bind_ret in E as ([c r] & R & E). apply bind_ret in E as ([cs0 s0] & D & E).
    injection E as <- <-. cbn. apply random_mod_range in R. apply IH in D. tauto.
Qed.

Lemma fy_coins_keeps : forall k i pi cs r, fy_coins k i pi cs = Some r ->
  length r = length pi /\ Permutation pi r /\ forall p, (p < i)%nat -> nth_error r p = nth_error pi p.
Proof.
  induction k as [|k IH]; intros i pi [|c cs] r; cbn [fy_coins]; try discriminate.
  - intros E. injection E as <-. auto.
  - destruct (swap_idx pi i _) as [pi1| | | | |] eqn:Sw; try discriminate. intros E. apply IH in E.
    destruct E as (L & P & K). pose proof (swap_idx_perm _ _ _ _ Sw) as P1. apply swap_idx_nth in Sw. destruct Sw as (L1 & _ & _ & T).
    split; [congruence|]. split; [eapply Permutation_trans; eassumption|].
    intros p Hp. rewrite K by lia. rewrite T. unfold transp.
    destruct (Nat.eqb_spec p i); [lia|]. destruct (Nat.eqb_spec p (i + N.to_nat c)); [lia | reflexivity].
Qed.

Lemma fy_coins_total n : forall k i pi cs, length pi = n -> (i + k + 1 = n)%nat -> admissible k i n cs ->
  exists r, fy_coins k i pi cs = Some r.
Proof.
  induction k as [|k IH]; intros i pi [|c cs] L Hk A; cbn [admissible] in A; try contradiction; cbn [fy_coins].
  - eauto.
  - destruct A as (Hc & A). destruct (swap_idx_total pi i (i + N.to_nat c)) as (pi1 & Sw); try lia.
    rewrite Sw. apply IH; [|lia|assumption]. apply swap_idx_nth in Sw. destruct Sw as (L1 & _). congruence.
Qed.

(* the coin of iteration i decides entry i of the result *)
Lemma fy_coins_head k i pi c cs r : fy_coins (S k) i pi (c :: cs) = Some r ->
  exists pi1, swap_idx pi i (i + N.to_nat c) = Ret pi1 /\ fy_coins k (S i) pi1 cs = Some r /\
              (i + N.to_nat c < length pi)%nat /\ nth_error r i = nth_error pi (i + N.to_nat c).
Proof.
  cbn [fy_coins]. destruct (swap_idx pi i (i + N.to_nat c)) as [pi1| | | | |] eqn:Sw; try discriminate. intros F.
  pose proof (swap_idx_nth _ _ _ _ Sw) as (_ & _ & Lc & T). pose proof (fy_coins_keeps _ _ _ _ _ F) as (_ & _ & K).
  exists pi1. repeat split; try assumption. rewrite (K i), T by lia. unfold transp. now rewrite Nat.eqb_refl.
Qed.

(* every permutation of pi that agrees with pi before position i is reached by exactly one coin vector, and that one
   is admissible: the coin of iteration i is forced, it is the distance from i to the place where pi holds target[i] *)
Theorem fy_coins_bij n : forall k i pi target, length pi = n -> (i + k + 1 = n)%nat -> NoDup pi -> Permutation pi target ->
  (forall p, (p < i)%nat -> nth_error target p = nth_error pi p) ->
  exists cs, admissible k i n cs /\ fy_coins k i pi cs = Some target /\
             forall cs', fy_coins k i pi cs' = Some target -> cs' = cs.
Proof.
  induction k as [|k IH]; intros i pi target L Hk ND P Hpre.
  - exists []. split; [exact I|]. split; [|intros [|c cs']; [reflexivity | discriminate]].
    cbn. f_equal. apply (perm_agree_prefix pi target i P); [lia|].
    intros p Hp. symmetry. now apply Hpre.
  - assert (Lt : length target = n) by (apply Permutation_length in P; congruence).
    assert (NDt : NoDup target) by (eapply Permutation_NoDup; eassumption).
    destruct (nth_error_ex target i) as (y & Ey); [lia|].
    assert (Hy : In y pi) by (eapply Permutation_in; [apply Permutation_sym; exact P | eapply nth_error_In; exact Ey]).
    apply In_nth_error in Hy. destruct Hy as (j & Ej).
    pose proof (nth_error_lt _ _ _ Ej) as Lj.
    assert (Hj : (i <= j)%nat).
    { destruct (le_lt_dec i j) as [|Hlt]; [assumption|]. exfalso.
      pose proof (Hpre j Hlt) as E. rewrite Ej, <- Ey in E.
      apply (proj1 (NoDup_nth_error target) NDt) in E; lia. }
    destruct (swap_idx_total pi i j ltac:(lia) ltac:(lia)) as (pi1 & Sw).
    pose proof (swap_idx_perm _ _ _ _ Sw) as P1. pose proof (swap_idx_nth _ _ _ _ Sw) as (L1 & _ & _ & T).
    destruct (IH (S i) pi1 target) as (cs & A & F & U); try lia.
    + eapply Permutation_NoDup; eassumption.
    + eapply Permutation_trans; [apply Permutation_sym; exact P1 | exact P].
    + intros p Hp. rewrite T. unfold transp. destruct (Nat.eqb_spec p i) as [->|NE].
      * congruence.
      * destruct (Nat.eqb_spec p j); [lia|]. apply Hpre. lia.
    + exists (N.of_nat (j - i) :: cs). split; [cbn [admissible]; split; [lia | exact A]|].
      cbn [fy_coins]. replace (i + N.to_nat (N.of_nat (j - i)))%nat with j by lia. rewrite Sw. split; [exact F|].
      intros [|c' cs'] F'; [discriminate|]. apply fy_coins_head in F'. destruct F' as (pi1' & Sw' & F' & Lc' & K').
      rewrite Ey, <- Ej in K'. apply (proj1 (NoDup_nth_error pi) ND) in K'; [|lia].
      assert (c' = N.of_nat (j - i)) by lia. subst c'. rewrite <- K', Sw in Sw'. injection Sw' as <-.
      f_equal. now apply U.
Qed.

Lemma all_coins_in n : forall k i cs, In cs (all_coins k i n) <-> admissible k i n cs.
Proof.
  induction k as [|k IH]; intros i cs; cbn [all_coins admissible].
  - destruct cs; cbn; intuition; discriminate.
  - rewrite in_flat_map. split.
    + intros (c & Hc & Hin). apply in_map_iff in Hin. destruct Hin as (t & <- & Ht). apply in_iota in Hc. apply IH in Ht. auto.
    + destruct cs as [|c t]; [tauto|]. intros (Hc & A). exists c. split; [now apply in_iota|]. apply in_map. now apply IH.
Qed.

Lemma NoDup_cons_product {A} (xs : list A) (L : list (list A)) : NoDup xs -> NoDup L ->
  NoDup (flat_map (fun c => map (cons c) L) xs).
Proof.
  intros Nx NL. induction Nx as [|x xs Hx Nx IH]; [constructor|]. cbn. apply NoDup_app_intro.
  - apply Injective_map_NoDup; [|assumption]. intros a b E. now injection E.
  - exact IH.
  - intros l Hl Hl'. apply in_map_iff in Hl. destruct Hl as (t & <- & _).
    apply in_flat_map in Hl'. destruct Hl' as (c & Hc & Hin). apply in_map_iff in Hin. destruct Hin as (t' & E & _).
    injection E as -> _. contradiction.
Qed.

Lemma all_coins_NoDup n : forall k i, NoDup (all_coins k i n).
Proof.
  induction k as [|k IH]; intros i; cbn [all_coins]; [repeat constructor; auto|].
  apply NoDup_cons_product; [apply NoDup_iota | apply IH].
Qed.

Lemma length_cons_product {A} (xs : list A) (L : list (list A)) :
  length (flat_map (fun c => map (cons c) L) xs) = (length xs * length L)%nat.
Proof. induction xs as [|x xs IH]; [reflexivity|]. cbn. rewrite app_length, map_length, IH. reflexivity. Qed.

Lemma all_coins_length n : forall k i, (i + k + 1 = n)%nat -> length (all_coins k i n) = fact (n - i).
Proof.
  induction k as [|k IH]; intros i Hk; cbn [all_coins].
  - replace (n - i)%nat with 1%nat by lia. reflexivity.
  - rewrite length_cons_product, iota_length, IH by lia.
    replace (n - i)%nat with (S (n - S i)) by lia. reflexivity.
Qed.

(* uniform independent coins give the uniform distribution on the n! results:
   the n! admissible coin vectors are mapped injectively to permutations of 0..n-1 *)
Theorem fisher_yates_uniform n : (1 <= n)%nat ->
  let dom := all_coins (n - 1) 0 n in
  length dom = fact n /\ NoDup dom /\ (forall cs, In cs dom <-> admissible (n - 1) 0 n cs) /\
  (forall cs, In cs dom -> exists pi, fisher_yates n cs = Some pi /\ Permutation (iota n) pi) /\
  (forall cs cs', In cs dom -> In cs' dom -> fisher_yates n cs = fisher_yates n cs' -> cs = cs') /\
  NoDup (map (fisher_yates n) dom) /\ length (map (fisher_yates n) dom) = fact n.
Proof.
  intros Hn dom.
  assert (Hlen : length dom = fact n) by (unfold dom; rewrite all_coins_length by lia; now rewrite Nat.sub_0_r).
  assert (Htot : forall cs, In cs dom -> exists pi, fisher_yates n cs = Some pi /\ Permutation (iota n) pi).
  { intros cs Hc. apply all_coins_in in Hc.
    destruct (fy_coins_total n (n - 1) 0 (iota n) cs (iota_length n) ltac:(lia) Hc) as (r & F).
    exists r. split; [exact F|]. apply fy_coins_keeps in F. tauto. }
  assert (Hinj : forall cs cs', In cs dom -> In cs' dom -> fisher_yates n cs = fisher_yates n cs' -> cs = cs').
  { intros cs cs' Hc _ E. destruct (Htot cs Hc) as (r & F & P). rewrite F in E. symmetry in E.
    destruct (fy_coins_bij n (n - 1) 0 (iota n) r (iota_length n) ltac:(lia) (NoDup_iota n) P) as (cs0 & _ & _ & U); [lia|].
    now rewrite (U cs F), (U cs' E). }
  split; [exact Hlen|]. split; [apply all_coins_NoDup|]. split; [apply all_coins_in|]. split; [exact Htot|]. split; [exact Hinj|].
  split; [apply NoDup_map_inj_in; [apply all_coins_NoDup | exact Hinj] | now rewrite map_length].
Qed.

(* what the real generator returns is the pure algorithm applied to the coins the sampler delivered *)
Theorem random_permutation_fast_coins n s pi s' : random_permutation_fast n s = Ret (pi, s') ->
  exists cs, draw_coins (n - 1) 0 n s = Ret (cs, s') /\ admissible (n - 1) 0 n cs /\ fisher_yates n cs = Some pi.
Proof.
  destruct n; cbn [random_permutation_fast]; [discriminate|]. intros E. apply fy_loop_coins in E.
  unfold fisher_yates. replace (S n - 1)%nat with n by lia. exact E.
Qed.

(* onto: every permutation of 0..n-1 is produced by (exactly one) admissible coin vector *)
Theorem fisher_yates_surj n target : (1 <= n)%nat -> Permutation (iota n) target ->
  exists cs, admissible (n - 1) 0 n cs /\ fisher_yates n cs = Some target.
Proof.
  intros Hn P.
  destruct (fy_coins_bij n (n - 1) 0 (iota n) target (iota_length n) ltac:(lia) (NoDup_iota n) P) as (cs & A & F & _); [lia|].
  eauto.
Qed.
