(* Zbase: executable modular arithmetic shared by all algebraic models (stdlib style).
   powm  = square-and-multiply modular exponentiation (what mpz_powm computes for e >= 0, p > 0)
   invm  = modular inverse by extended Euclid (mpz_invert): Some x with 0 <= x < p and a*x = 1 (mod p), or None
   Proofs: powm_spec (equals b^e mod p), exponent laws, invm_spec, exponents of an element with g^q = 1 (section Cyclic),
   and the prime-order-subgroup lemma (g^q = 1, g <> 1, q prime  ==>  g^a = g^b <-> a = b (mod q); section Order). *)
From Coq Require Import ZArith Znumtheory Lia List Bool.
Import ListNotations.
Local Open Scope Z_scope.

Fixpoint powm_pos (b : Z) (e : positive) (p : Z) : Z :=
  match e with
  | xH => b mod p
  | xO e' => let t := powm_pos b e' p in (t * t) mod p
  | xI e' => let t := powm_pos b e' p in ((t * t) mod p * b) mod p
  end.

(* negative exponents are not handled here (callers go through invm first, as mpz_powm does) *)
Definition powm (b e p : Z) : Z :=
  match e with
  | Z0 => 1 mod p
  | Zpos e' => powm_pos b e' p
  | Zneg _ => 0
  end.

Definition mulm (a b p : Z) : Z := (a * b) mod p.

(* extended Euclid on (r0, r1) with fuel; returns gcd and Bezout coefficient of a (invm starts it on (a mod p, p)) *)
Fixpoint egcd_fuel (fuel : nat) (r0 r1 s0 s1 : Z) : Z * Z :=
  match fuel with
  | O => (r0, s0)
  | S f => if r1 =? 0 then (r0, s0)
           else let q := r0 / r1 in egcd_fuel f r1 (r0 - q * r1) s1 (s0 - q * s1)
  end.

Definition invm (a p : Z) : option Z :=
  if p <=? 0 then None else
  let '(g, s) := egcd_fuel (S (2 * Z.to_nat (Z.log2_up p + 1))) (a mod p) p 1 0 in
  if g =? 1 then Some (s mod p) else if (p =? 1) then Some 0 else None.

Lemma powm_pos_spec b e p : 0 < p -> powm_pos b e p = b ^ Zpos e mod p.
Proof.
  intros Hp. induction e as [e IH|e IH|]; cbn [powm_pos].
  - rewrite IH. rewrite Pos2Z.inj_xI.
    replace (2 * Z.pos e + 1) with (Z.pos e + Z.pos e + 1) by lia.
    rewrite !Z.pow_add_r, Z.pow_1_r by lia.
    rewrite <- (Zmult_mod (b ^ Z.pos e) (b ^ Z.pos e) p).
    now rewrite Zmult_mod_idemp_l.
  - rewrite IH. rewrite Pos2Z.inj_xO.
    replace (2 * Z.pos e) with (Z.pos e + Z.pos e) by lia.
    rewrite Z.pow_add_r by lia. now rewrite <- Zmult_mod.
  - now rewrite Z.pow_1_r.
Qed.

Lemma powm_spec b e p : 0 < p -> 0 <= e -> powm b e p = b ^ e mod p.
Proof.
  intros Hp He. destruct e as [|e|e]; cbn [powm].
  - reflexivity.
  - now apply powm_pos_spec.
  - lia.
Qed.

Lemma powm_range b e p : 0 < p -> 0 <= e -> 0 <= powm b e p < p.
Proof. intros. rewrite powm_spec by assumption. now apply Z.mod_pos_bound. Qed.

Lemma powm_add b e1 e2 p : 0 < p -> 0 <= e1 -> 0 <= e2 ->
  powm b (e1 + e2) p = (powm b e1 p * powm b e2 p) mod p.
Proof.
  intros. rewrite !powm_spec by lia. rewrite Z.pow_add_r by lia. apply Zmult_mod.
Qed.

Lemma pow_mod_base b e p : 0 < p -> 0 <= e -> (b mod p) ^ e mod p = b ^ e mod p.
Proof.
  intros Hp He. pattern e. apply natlike_ind; [reflexivity| |assumption].
  intros x Hx IH. rewrite !Z.pow_succ_r by assumption.
  rewrite Zmult_mod, IH, Zmod_mod, <- Zmult_mod. reflexivity.
Qed.

Lemma powm_mul b e1 e2 p : 0 < p -> 0 <= e1 -> 0 <= e2 ->
  powm b (e1 * e2) p = powm (powm b e1 p) e2 p.
Proof.
  intros. rewrite !powm_spec by nia. rewrite pow_mod_base by lia.
  now rewrite Z.pow_mul_r by lia.
Qed.

Lemma powm_mul_base a b e p : 0 < p -> 0 <= e ->
  powm (a * b) e p = (powm a e p * powm b e p) mod p.
Proof.
  intros. rewrite !powm_spec by lia. rewrite Z.pow_mul_l. apply Zmult_mod.
Qed.

Lemma powm_base_mod b e p : 0 < p -> 0 <= e -> powm (b mod p) e p = powm b e p.
Proof. intros. rewrite !powm_spec by lia. now apply pow_mod_base. Qed.

Lemma powm_1_l e p : 0 < p -> 0 <= e -> powm 1 e p = 1 mod p.
Proof. intros. rewrite powm_spec by lia. now rewrite Z.pow_1_l. Qed.

Lemma powm_0_r b p : powm b 0 p = 1 mod p.
Proof. reflexivity. Qed.

Lemma powm_1_r b p : powm b 1 p = b mod p.
Proof. reflexivity. Qed.

(* Euclid's algorithm on r0 >= r1 keeps r_i = s_i * a (mod p) and, with one unit of fuel per bit of r0 * r1, ends
   with the gcd: r1 + r0 mod r1 <= r0, so the product at least halves in every round. *)
Lemma egcd_fuel_spec a p : forall f r0 r1 s0 s1,
  0 <= r1 <= r0 -> r0 * r1 < 2 ^ Z.of_nat f -> (p | r0 - s0 * a) -> (p | r1 - s1 * a) ->
  let (g, s) := egcd_fuel f r0 r1 s0 s1 in g = Z.gcd r0 r1 /\ (p | g - s * a).
Proof.
  induction f as [|f IH]; intros r0 r1 s0 s1 Hr Hm D0 D1; cbn [egcd_fuel].
  - assert (r1 = 0) as -> by (cbn in Hm; nia). rewrite Z.gcd_0_r, Z.abs_eq by lia. auto.
  - destruct (Z.eqb_spec r1 0) as [->|NZ].
    + rewrite Z.gcd_0_r, Z.abs_eq by lia. auto.
    + replace (r0 - r0 / r1 * r1) with (r0 mod r1) by (rewrite Z.mod_eq by lia; lia).
      pose proof (Z.mod_pos_bound r0 r1 ltac:(lia)) as Bm.
      specialize (IH r1 (r0 mod r1) s1 (s0 - r0 / r1 * s1)).
      destruct (egcd_fuel f _ _ _ _) as [g s].
      rewrite (Z.gcd_comm r0), <- Z.gcd_mod, (Z.gcd_comm (r0 mod r1)) by lia. apply IH; [lia| |assumption|].
      * rewrite Nat2Z.inj_succ, Z.pow_succ_r in Hm by lia.
        pose proof (Z.div_mod r0 r1 NZ). assert (1 <= r0 / r1) by (apply Z.div_le_lower_bound; lia). nia.
      * replace (r0 mod r1 - (s0 - r0 / r1 * s1) * a) with (r0 - s0 * a - r0 / r1 * (r1 - s1 * a))
          by (rewrite Z.mod_eq by lia; ring).
        apply Z.divide_sub_r; [assumption|now apply Z.divide_mul_r].
Qed.

(* the fuel invm provides, twice the bit length of p, suffices *)
Lemma invm_run a p : 0 < p ->
  let (g, s) := egcd_fuel (S (2 * Z.to_nat (Z.log2_up p + 1))) (a mod p) p 1 0 in
  g = Z.gcd a p /\ (p | g - s * a).
Proof.
  intros Hp. pose proof (Z.mod_pos_bound a p Hp) as Ba. pose proof (Z.log2_up_nonneg p) as Hl.
  cbn [egcd_fuel]. destruct (Z.eqb_spec p 0) as [|_]; [lia|].
  rewrite Z.div_small, Z.mul_0_l, Z.mul_0_l, !Z.sub_0_r by lia.
  replace (Z.gcd a p) with (Z.gcd p (a mod p)) by (rewrite Z.gcd_comm, Z.gcd_mod by lia; apply Z.gcd_comm).
  apply egcd_fuel_spec; [lia| | |].
  - assert (p <= 2 ^ Z.log2_up p).
    { destruct (Z.eq_dec p 1) as [->|]; [cbn; lia|]. apply Z.log2_up_spec. lia. }
    rewrite Nat2Z.inj_mul, Z2Nat.id by lia.
    replace (Z.of_nat 2 * (Z.log2_up p + 1)) with (Z.log2_up p + Z.log2_up p + 2) by lia.
    rewrite !Z.pow_add_r by lia. nia.
  - exists 1. ring.
  - exists (- (a / p)). rewrite Z.mod_eq by lia. ring.
Qed.

(* mpz_invert: Some i with i the inverse in [0,p), None exactly when there is none (for p = 1 it returns 0) *)
Theorem invm_spec a p : 0 < p ->
  match invm a p with
  | Some i => 0 <= i < p /\ (a * i) mod p = 1 mod p
  | None => Z.gcd a p <> 1
  end.
Proof.
  intros Hp. unfold invm. destruct (Z.leb_spec p 0); [lia|].
  pose proof (invm_run a p Hp) as R. destruct (egcd_fuel _ _ _ _ _) as [g s]. destruct R as [-> [k D]].
  destruct (Z.eqb_spec (Z.gcd a p) 1) as [G|G].
  - split; [now apply Z.mod_pos_bound|]. rewrite Zmult_mod_idemp_r.
    replace (a * s) with (1 + (- k) * p) by lia. now rewrite Z.mod_add by lia.
  - destruct (Z.eqb_spec p 1) as [->|]; [|assumption]. rewrite !Z.mod_1_r. lia.
Qed.

Corollary invm_some a p x : invm a p = Some x -> 0 < p /\ 0 <= x < p /\ (a * x) mod p = 1 mod p.
Proof.
  intros E. assert (Hp : 0 < p) by (unfold invm in E; destruct (Z.leb_spec p 0); [discriminate|assumption]).
  pose proof (invm_spec a p Hp) as S. rewrite E in S. tauto.
Qed.

Lemma inverse_gcd a x p : 1 < p -> (a * x) mod p = 1 -> Z.gcd a p = 1.
Proof.
  intros Hp H. apply Zgcd_1_rel_prime, bezout_rel_prime. apply (Bezout_intro a p 1 x (- (a * x / p))).
  pose proof (Z.div_mod (a * x) p). lia.
Qed.

Corollary invm_inverse a p x : 1 < p -> invm a p = Some x -> 0 <= x < p /\ (a * x) mod p = 1.
Proof. intros Hp E. apply invm_some in E. now rewrite Z.mod_1_l in E by assumption. Qed.

Corollary invm_none a p : 0 < p -> (invm a p = None <-> Z.gcd a p <> 1).
Proof.
  intros Hp. pose proof (invm_spec a p Hp) as S. destruct (invm a p) as [i|]; [|tauto].
  split; [discriminate|]. intros G. exfalso. apply G.
  destruct (Z.eq_dec p 1) as [->|]; [apply Z.gcd_1_r|]. apply (inverse_gcd a i); [lia|].
  rewrite Z.mod_1_l in S by lia. tauto.
Qed.

Corollary invm_coprime a p : 0 < p -> Z.gcd a p = 1 -> exists x, invm a p = Some x.
Proof. intros Hp G. destruct (invm a p) eqn:E; [eauto|]. apply invm_none in E; [contradiction|assumption]. Qed.

(* in a prime field every non-zero residue is invertible *)
Corollary invm_prime a p : prime p -> a mod p <> 0 -> exists i, invm a p = Some i.
Proof.
  intros Pp Ha. assert (0 < p) by (destruct Pp; lia). apply invm_coprime; [assumption|].
  apply Zgcd_1_rel_prime, rel_prime_sym, prime_rel_prime; [assumption|].
  intros D. apply Ha. now apply Zdivide_mod.
Qed.

Lemma inverse_unique p a x y : 0 < p -> (a * x) mod p = 1 mod p -> (a * y) mod p = 1 mod p -> x mod p = y mod p.
Proof.
  intros Hp Hx Hy.
  assert (E1 : (x * (a * y)) mod p = x mod p) by (now rewrite <- Zmult_mod_idemp_r, Hy, Zmult_mod_idemp_r, Z.mul_1_r).
  assert (E2 : (y * (a * x)) mod p = y mod p) by (now rewrite <- Zmult_mod_idemp_r, Hx, Zmult_mod_idemp_r, Z.mul_1_r).
  rewrite <- E1, <- E2. f_equal. ring.
Qed.

(* the value mpz_invert returns is THE inverse: any residue y with a * y = 1 equals it *)
Lemma invm_eq a y p : 1 < p -> 0 <= y < p -> (a * y) mod p = 1 -> invm a p = Some y.
Proof.
  intros Hp Hy Hay. destruct (invm_coprime a p ltac:(lia) (inverse_gcd a y p Hp Hay)) as [x E].
  rewrite E. f_equal. apply invm_some in E. destruct E as (_ & Bx & Ex).
  rewrite <- (Z.mod_1_l p Hp) in Hay. pose proof (inverse_unique p a x y ltac:(lia) Ex Hay) as U.
  now rewrite !Z.mod_small in U by lia.
Qed.

Lemma mod_sub_0 a b q : (a - b) mod q = 0 -> a mod q = b mod q.
Proof. intros E. replace a with (a - b + b) by ring. now rewrite Zplus_mod, E, Z.add_0_l, Zmod_mod. Qed.

(* multiplying by a and then by its inverse i gives b back *)
Lemma mod_cancel_l p a i b : (a * i) mod p = 1 -> ((b * a) mod p * i) mod p = b mod p.
Proof. intros Hi. now rewrite Zmult_mod_idemp_l, <- Z.mul_assoc, <- Zmult_mod_idemp_r, Hi, Z.mul_1_r. Qed.

Lemma mod_cancel p a i b : (a * i) mod p = 1 -> 0 <= b < p -> (i * ((b * a) mod p)) mod p = b.
Proof. intros Hi Hb. rewrite Z.mul_comm, mod_cancel_l by assumption. now apply Z.mod_small. Qed.

Lemma prime_gt1 q : prime q -> 1 < q.
Proof. intros [H _]. exact H. Qed.

(* a mod m = b mod m for ring expressions a, b that contain reductions mod m: read both sides as residues (eqm), drop the
   inner reductions (Zmod_eqm, under the operations that respect eqm), compare by ring *)
Ltac mod_ring m :=
  match goal with |- (?a mod m = ?b mod m) => change (eqm m a b) end;
  let P1 := fresh in let P2 := fresh in let P3 := fresh in let P4 := fresh in let P5 := fresh in
  pose proof (Zmult_eqm m) as P1; pose proof (eqm_setoid m) as P2; pose proof (Zplus_eqm m) as P3;
  pose proof (Zminus_eqm m) as P4; pose proof (Zopp_eqm m) as P5;
  rewrite ?(Zmod_eqm m); unfold eqm; f_equal; ring.

(* exponents of an element with g^q = 1 (q need not be prime) *)
Section Cyclic.
  Variables p q g : Z.
  Hypothesis Hp : 1 < p.
  Hypothesis Hq : 0 < q.
  Hypothesis Hgq : powm g q p = 1.

  Lemma powm_order_mult (w : Z) : 0 <= w -> powm g (w * q) p = 1.
  Proof. intros Hw. rewrite Z.mul_comm, powm_mul, Hgq, powm_1_l by lia. apply Z.mod_1_l. lia. Qed.

  Lemma powm_mod_order (e : Z) : 0 <= e -> powm g (e mod q) p = powm g e p.
  Proof.
    intros He. pose proof (Z.mod_pos_bound e q Hq). assert (0 <= e / q) by (apply Z.div_pos; lia).
    rewrite (Z.div_mod e q) at 2 by lia. rewrite powm_add, (Z.mul_comm q), powm_order_mult by (assumption || nia).
    rewrite Z.mul_1_l. symmetry. apply Z.mod_small, powm_range; lia.
  Qed.

  Lemma powm_cong (a b : Z) : 0 <= a -> 0 <= b -> a mod q = b mod q -> powm g a p = powm g b p.
  Proof. intros Ha Hb E. rewrite <- (powm_mod_order a), E by assumption. now apply powm_mod_order. Qed.

  (* g^e * g^((q-1) e) = g^(e q) = 1: powers of g are units, and mpz_invert finds g^((q-1) e) *)
  Lemma powm_inverse (e : Z) : 0 <= e -> invm (powm g e p) p = Some (powm g ((q - 1) * e) p).
  Proof.
    intros He. apply invm_eq; [lia|apply powm_range; nia|].
    rewrite <- powm_add by nia. replace (e + (q - 1) * e) with (e * q) by ring. now apply powm_order_mult.
  Qed.

  Lemma powm_nonzero (e : Z) : 0 <= e -> 0 < powm g e p < p.
  Proof.
    intros He. pose proof (powm_range g e p ltac:(lia) He). pose proof (invm_inverse _ _ _ Hp (powm_inverse e He)) as [_ I].
    destruct (Z.eq_dec (powm g e p) 0) as [Z0|]; [|lia]. rewrite Z0, Z.mul_0_l, Z.mod_0_l in I; lia.
  Qed.
End Cyclic.

(* a subgroup of prime order q: exponents count modulo q exactly *)
Section Order.
  Variables p q g : Z.
  Hypothesis Hp : 1 < p.
  Hypothesis Hq : prime q.
  Hypothesis Hgq : powm g q p = 1.
  Hypothesis Hg1 : g mod p <> 1.

  Let q_pos : 0 < q.
  Proof. pose proof (prime_gt1 q Hq). lia. Qed.

  Lemma powm_mod_q (e : Z) : 0 <= e -> powm g (e mod q) p = powm g e p.
  Proof using Hp Hq Hgq. apply powm_mod_order; assumption. Qed.

  (* an exponent d in (0,q) with g^d = 1 forces g = 1: d has an inverse u modulo q, and g = g^(d u) = (g^d)^u *)
  Lemma no_small_order (d : Z) : 0 < d < q -> powm g d p <> 1.
  Proof.
    intros Hd H1. destruct (invm_prime d q Hq) as [u U]; [rewrite Z.mod_small; lia|].
    apply invm_inverse in U; [|lia]. destruct U as [Ru Eu]. apply Hg1.
    rewrite <- powm_1_r. transitivity (powm g ((d * u) mod q) p); [now rewrite Eu|].
    rewrite powm_mod_order, powm_mul, H1, powm_1_l by (assumption || nia). apply Z.mod_1_l, Hp.
  Qed.

  (* g^a = g^b gives g^(b - a mod q) = 1 after multiplying by the inverse g^((q-1) a) of g^a *)
  Theorem powm_inj_mod_q (a b : Z) : 0 <= a -> 0 <= b -> (powm g a p = powm g b p <-> a mod q = b mod q).
  Proof.
    intros Ha Hb. split; [|now apply powm_cong].
    intros E. symmetry. apply mod_sub_0. pose proof (Z.mod_pos_bound (b - a) q q_pos) as Bd.
    destruct (Z.eq_dec ((b - a) mod q) 0) as [|D]; [assumption|]. exfalso. apply (no_small_order ((b - a) mod q)); [lia|].
    rewrite (powm_cong p q g Hp q_pos Hgq ((b - a) mod q) (b + (q - 1) * a)); [|lia|nia|].
    - rewrite powm_add, <- E, <- powm_add by nia. replace (a + (q - 1) * a) with (a * q) by ring. now apply powm_order_mult.
    - rewrite Zmod_mod. replace (b + (q - 1) * a) with (b - a + a * q) by ring. now rewrite Z.mod_add by lia.
  Qed.

  Corollary pow_inj_mod_q (a b : Z) : 0 <= a -> 0 <= b -> (g ^ a mod p = g ^ b mod p <-> a mod q = b mod q).
  Proof. intros. rewrite <- !powm_spec by lia. now apply powm_inj_mod_q. Qed.

  Corollary powm_inj_small (a b : Z) : 0 <= a < q -> 0 <= b < q -> powm g a p = powm g b p -> a = b.
  Proof.
    intros Ha Hb E. apply powm_inj_mod_q in E; [|lia|lia].
    rewrite !Z.mod_small in E by lia. assumption.
  Qed.
End Order.
