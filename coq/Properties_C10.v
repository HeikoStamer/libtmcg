(* C10 -- Rabin key operations are consistent and tamper-evident.
   Each property theorem is closed by `exact <lemma>` and followed by Print Assumptions.
   H1, H2 are the raw digests (SHA-256, SHA3-256) as oracles; the premises on them (32 byte-valued output bytes, digest never
   all-zero) and on the square-root oracle (`roots_sound`: property C09) are stated in every theorem that needs them. *)
From Coq Require Import ZArith NArith List Lia.
From LT Require Import gen_Consts CodecModel RabinModel RabinLemmas.
Import ListNotations.

(* verify looks at the signature value only through its square modulo |m| *)
Theorem C10_verify_depends_on_square : forall (H1 H2 : bytes -> bytes) m heap data v v',
  ((v * v) mod Z.abs m = (v' * v') mod Z.abs m)%Z ->
  verify_core H1 H2 m heap data v = verify_core H1 H2 m heap data v'.
Proof. exact verify_core_square. Qed.
Print Assumptions C10_verify_depends_on_square.

(* equivalent representations: the negated root and every representative modulo m *)
Theorem C10_verify_negated_root : forall (H1 H2 : bytes -> bytes) m heap data v,
  verify_core H1 H2 m heap data (- v) = verify_core H1 H2 m heap data v.
Proof. exact verify_core_neg. Qed.
Print Assumptions C10_verify_negated_root.

Theorem C10_verify_shifted_root : forall (H1 H2 : bytes -> bytes) m heap data v k,
  verify_core H1 H2 m heap data (v + k * m) = verify_core H1 H2 m heap data v.
Proof. exact verify_core_shift. Qed.
Print Assumptions C10_verify_shifted_root.

(* acceptance as an explicit predicate: size conditions, nonzero square, and the buffer parses as w || r* || gamma with
   w = h(data || r* xor g1(w)) and gamma = g2(w) *)
Theorem C10_verify_accept_iff : forall (H1 H2 : bytes -> bytes) m heap data v,
  verify_core H1 H2 m heap data v = Accept <-> verify_accepts H1 H2 m heap data v.
Proof. exact verify_core_accept_iff. Qed.
Print Assumptions C10_verify_accept_iff.

(* text level: an accepted signature text has the frame sig|kid|value|, the key id matches the key, the value verifies *)
Theorem C10_verify_text_accept_implies : forall (H1 H2 : bytes -> bytes) m ksig heap data t,
  verify_text H1 H2 m ksig heap data t = Accept ->
  exists s1 kid s2 vs rest v,
    cm t str_sig bar = Some s1 /\ split_at bar s1 = Some (kid, s2) /\ kid_matches ksig kid = true /\
    split_at bar s2 = Some (vs, rest) /\ decode62 vs = Some v /\ verify_core H1 H2 m heap data v = Accept.
Proof. exact verify_text_accept_implies. Qed.
Print Assumptions C10_verify_text_accept_implies.

(* the bytes mpz_export writes in verify never exceed the mnsize+1024 byte buffer (fixes b19627f, 5f58cf8) *)
Theorem C10_verify_export_fits : forall (H1 H2 : bytes -> bytes) m heap data v,
  verify_core H1 H2 m heap data v <> Overflow.
Proof. exact verify_core_no_overflow. Qed.
Print Assumptions C10_verify_export_fits.

(* the verdict never depends on what the uninitialised buffer held *)
Theorem C10_verify_heap_irrelevant : forall (H1 H2 : bytes -> bytes) m heap heap' data v, verify_core H1 H2 m heap data v = verify_core H1 H2 m heap' data v.
Proof. exact verify_core_heap_irrelevant. Qed.
Print Assumptions C10_verify_heap_irrelevant.

(* a signature value whose square is zero (0, the modulus, ...) is refused (fix 5f58cf8) *)
Theorem C10_zero_square_refused : forall (H1 H2 : bytes -> bytes) m heap data v,
  ((v * v) mod Z.abs m = 0)%Z -> verify_core H1 H2 m heap data v = Reject.
Proof. exact verify_core_zero_square. Qed.
Print Assumptions C10_zero_square_refused.

(* tamper evidence of the padded value: two nonzero word-sized squares leaving the same bytes in the buffer are equal, so
   a different square needs different (w, r*, gamma) -- i.e. new oracle answers (named limit: no collision bound is proved) *)
Theorem C10_same_fields_same_square : forall s a b, (0 < s)%nat -> (0 < a)%Z -> (0 < b)%Z ->
  (sizeinbase2 a <= 8 * Z.of_nat s)%Z -> (sizeinbase2 b <= 8 * Z.of_nat s)%Z ->
  export_bytes s a = export_bytes s b -> a = b.
Proof. exact export_injective. Qed.
Print Assumptions C10_same_fields_same_square.

(* sign then verify, for every modulus that passes sign's assertions, every message, every coin stream *)
Theorem C10_sign_verify_ok : forall H1 H2 : bytes -> bytes,
  (forall x, length (H1 x) = md) -> (forall x, length (H2 x) = md) ->
  (forall x, Forall byte (H1 x)) -> (forall x, Forall byte (H2 x)) ->
  forall (qr : Z -> bool) (roots : Z -> list Z) m ksig data stream idx t,
  roots_sound roots m -> digest_nonzero H1 -> kid_ok ksig -> Forall byte stream ->
  sign_text H1 H2 qr roots m ksig data stream idx = Some t ->
  forall heap, verify_text H1 H2 m ksig heap data t = Accept.
Proof. exact sign_verify_ok. Qed.
Print Assumptions C10_sign_verify_ok.

(* all four square roots of a padded value verify (the one-in-four choice is immaterial), also negated and shifted by m *)
Theorem C10_all_roots_verify : forall H1 H2 : bytes -> bytes,
  (forall x, length (H1 x) = md) -> (forall x, length (H2 x) = md) ->
  (forall x, Forall byte (H1 x)) -> (forall x, Forall byte (H2 x)) ->
  forall (roots : Z -> list Z) m heap data r s,
  roots_sound roots m -> digest_nonzero H1 ->
  (Z.of_nat (mnsize_of m) * 8 < sizeinbase2 m)%Z -> (md + K0 < mnsize_of m)%nat -> length r = K0 -> Forall byte r ->
  In s (roots (sign_pad H1 H2 m data r)) ->
  verify_core H1 H2 m heap data s = Accept /\ verify_core H1 H2 m heap data (- s) = Accept /\
  (forall k, verify_core H1 H2 m heap data (s + k * m) = Accept).
Proof. exact roots_all_verify. Qed.
Print Assumptions C10_all_roots_verify.

(* encrypt then decrypt, for every modulus size passing the padding-size tests, every 20-byte plaintext, every coin string for
   which the padded value x is a nonzero unit square with x among the roots and no earlier root passing the redundancy test *)
Theorem C10_encrypt_decrypt_ok : forall H1 H2 : bytes -> bytes,
  (forall x, length (H1 x) = md) -> (forall x, length (H2 x) = md) ->
  (forall x, Forall byte (H1 x)) -> (forall x, Forall byte (H2 x)) ->
  forall (qr : Z -> bool) (roots : Z -> list Z) m ksig value coins t,
  kid_ok ksig ->
  length value = S0 -> Forall byte value -> (mnsize_of m - 2 * S0 <= length coins)%nat -> Forall byte coins ->
  encrypt_text H1 H2 m ksig value coins = Some t ->
  let x := saep_pad H1 H2 m value coins in
  let c := ((x * x) mod Z.abs m)%Z in
  x <> 0%Z -> qr c = true ->
  (exists pre post, roots c = pre ++ x :: post /\ Forall (spurious_free H1 H2 (mnsize_of m)) pre) ->
  forall heap, decrypt_text H1 H2 qr roots m ksig heap t = DecValue value.
Proof. exact encrypt_decrypt_ok. Qed.
Print Assumptions C10_encrypt_decrypt_ok.

(* decrypt never writes beyond its buffer either (fix 288af9c): every modulus size, every ciphertext text, every root oracle *)
Theorem C10_decrypt_export_fits : forall (H1 H2 : bytes -> bytes) (qr : Z -> bool) (roots : Z -> list Z) m ksig heap t,
  decrypt_text H1 H2 qr roots m ksig heap t <> DecOverflow.
Proof. exact decrypt_text_no_overflow. Qed.
Print Assumptions C10_decrypt_export_fits.

(* key validation: what an accepting check() establishes (Jacobi symbol and primality test are the oracles of the code) *)
Theorem C10_check_accept_implies : forall (H1 H2 : bytes -> bytes) (jacobi : Z -> Z -> Z) (is_prime : Z -> bool) fuel heap k,
  check H1 H2 jacobi is_prime fuel heap k = Ok bool true ->
  jacobi (k_y k) (k_m k) = 1%Z /\ Z.odd (k_m k) = true /\ is_prime (k_m k) = false /\
  verify_text H1 H2 (k_m k) (k_sig k) heap (selfsig_data k) (k_sig k) = Accept /\
  (contains str_NIZK (k_type k) = true -> nizk_valid jacobi k).
Proof. exact check_accept_implies. Qed.
Print Assumptions C10_check_accept_implies.

(* key texts: export then import gives the key back (fields without the delimiter; secret key passing precompute) *)
Theorem C10_pubkey_text_roundtrip : forall k, nobar (k_name k) -> nobar (k_email k) -> nobar (k_type k) -> nobar (k_nizk k) ->
  import_pub (export_pub k) = Some k.
Proof. exact import_export_pub. Qed.
Print Assumptions C10_pubkey_text_roundtrip.

Theorem C10_seckey_text_roundtrip : forall k p q, nobar (k_name k) -> nobar (k_email k) -> nobar (k_type k) -> nobar (k_nizk k) ->
  precompute_ok (k_m k) (k_y k) p q = true ->
  import_sec (export_sec k p q) = Some (k, p, q).
Proof. exact import_export_sec. Qed.
Print Assumptions C10_seckey_text_roundtrip.

Definition Hc : bytes -> bytes := fun _ => repeat 1%N 32.
Example C10_nonvacuous_hash : (forall x, length (Hc x) = md) /\ (forall x, Forall byte (Hc x)) /\ digest_nonzero Hc.
Proof.
  repeat split; intros x.
  - unfold Hc. repeat constructor; unfold byte; lia.
  - unfold Hc. cbn. intros F. inversion F. discriminate.
Qed.
Example C10_nonvacuous_kid : kid_ok (selfsig_text (2 ^ 100 + 12345)).
Proof. unfold kid_ok. split; [vm_compute; repeat constructor; discriminate|vm_compute; reflexivity]. Qed.
(* an accepted signature: modulus of 604 bits, padded value computed with the constant oracle, root 2^302 *)
Definition Hd : bytes -> bytes := fun x => repeat (2 + N.of_nat (length x) mod 100)%N 32.
Definition ex_foo : Z := sign_pad Hc Hd (2 ^ 603)%Z [1; 2; 3]%N (repeat 7%N 20).
Definition ex_m : Z := (2 ^ 604 - ex_foo)%Z.
Example C10_nonvacuous_accept : verify_core Hc Hd ex_m [] [1; 2; 3]%N (2 ^ 302)%Z = Accept.
Proof.
  (* no evaluation of the padding: ex_foo is a padded value below 2^600, so ex_m has 604 bits like 2^603, and
     (2^302)^2 = ex_m + ex_foo; the rest is verify_core_padded *)
  destruct C10_nonvacuous_hash as (Lc & Bc & NZ).
  assert (Ld : forall x, length (Hd x) = md) by (intros; apply repeat_length).
  assert (Bd : forall x, Forall byte (Hd x)).
  { intros x. apply Forall_forall. intros b Hb. apply repeat_spec in Hb. subst b. unfold byte.
    pose proof (N.mod_upper_bound (N.of_nat (length x)) 100). lia. }
  set (r := repeat 7%N 20).
  assert (Br : Forall byte r) by (apply Forall_forall; intros b Hb; apply repeat_spec in Hb; now subst b).
  pose proof (sign_pad_range Hc Hd Lc Ld Bc Bd (2 ^ 603) [1; 2; 3]%N r eq_refl Br) as R.
  pose proof (sign_pad_nonzero Hc Hd (2 ^ 603) [1; 2; 3]%N r NZ) as N0.
  change (sign_pad Hc Hd (2 ^ 603) [1; 2; 3]%N r) with ex_foo in R, N0.
  change (mnsize_of (2 ^ 603)) with 75%nat in R. specialize (R ltac:(vm_compute; lia)).
  change (8 * Z.of_nat 75)%Z with 600%Z in R.
  assert (Q : (2 ^ 302 * 2 ^ 302 = ex_foo + 1 * Z.abs ex_m)%Z /\ (2 ^ 600 <= ex_m < 2 ^ 607)%Z).
  { (* the powers become variables: lia's certificate over 600-bit literals is very dear to coqchk, and so is computing
       2 ^ 604 = 16 * 2 ^ 600 (hence Z.pow_add_r) *)
    pose proof (Z.pow_pos_nonneg 2 600) as P0. pose proof (Z.pow_add_r 2 302 302) as PP.
    pose proof (Z.pow_add_r 2 4 600) as P4. pose proof (Z.pow_add_r 2 7 600) as P7.
    change (302 + 302)%Z with 604%Z in PP. change (4 + 600)%Z with 604%Z in P4. change (7 + 600)%Z with 607%Z in P7.
    change (2 ^ 4)%Z with 16%Z in P4. change (2 ^ 7)%Z with 128%Z in P7.
    unfold ex_m. revert R P0 PP P4 P7. generalize ex_foo (2 ^ 600)%Z (2 ^ 604)%Z (2 ^ 607)%Z (2 ^ 302)%Z. lia. }
  destruct Q as [Q B]. apply sizeinbase2_between in B; [|lia].
  assert (MN : mnsize_of ex_m = 75%nat).
  { unfold mnsize_of. now rewrite <- (Z.div_unique (sizeinbase2 ex_m) 8 75 (sizeinbase2 ex_m - 600)) by lia. }
  assert (E : sign_pad Hc Hd ex_m [1; 2; 3]%N r = ex_foo) by (unfold sign_pad; rewrite MN; reflexivity).
  (* every premise by name: `assumption` would close the last one against E by evaluating both sides *)
  apply (verify_core_padded Hc Hd Lc Ld Bc Bd ex_m [] [1; 2; 3]%N r); rewrite ?MN, ?E.
  - lia.
  - vm_compute. lia.
  - reflexivity.
  - exact Br.
  - exact N0.
  - rewrite Q. apply Z_mod_plus_full.
Qed.
(* the modulus itself as signature value: its square is zero *)
Example C10_nonvacuous_zero : verify_core Hc Hd ex_m (repeat 1%N 2000) [1; 2; 3]%N ex_m = Reject.
Proof. apply verify_core_zero_square. rewrite <- Z.abs_square. apply Z_mod_mult. Qed.
(* a changed value is refused; with a constant digest oracle changed data is NOT refused: refusing different data is exactly
   the oracle step that the theorems leave as a named limit *)
Example C10_nonvacuous_tamper : verify_core Hc Hd ex_m [] [1; 2; 4]%N (2 ^ 302)%Z = Accept /\
                                verify_core Hc Hd ex_m [] [1; 2; 3]%N (2 ^ 302 + 1)%Z = Reject.
Proof.
  split; [|vm_compute; reflexivity].   (* a refusal by the padding test: no rule short of running the test *)
  rewrite (verify_core_data Hc Hd ex_m [] _ [1; 2; 3]%N) by reflexivity. exact C10_nonvacuous_accept.
Qed.
