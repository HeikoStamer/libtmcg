(* C01 -- Opening a masked card returns the type it was created with.
   Each property theorem is closed by `exact <lemma>` and followed by Print Assumptions. *)
From Coq Require Import ZArith Znumtheory List Lia Permutation Bool.
From LT Require Import gen_Consts Zbase PowmModel PowmLemmas VtmfModel VtmfLemmas VtmfCount TmcgModel TmcgLemmas.
Import ListNotations.
Local Open Scope Z_scope.

(* Discrete-log encoding.  For every admissible group (odd p, g of prime order q modulo p: Schnorr group with
   random or canonical generator, or the QR group of a safe prime), every number of players with every key
   vector, every type T < 2^w <= q, every chain of re-maskings (any length, any exponents the tables are built
   for, timing protection on or off per step): opened with the shares of all players the card has type T. *)
Theorem C01_vtmf_open : forall G w x_own others T chain,
  wf_group G -> 2 ^ Z.of_nat w <= gq G -> Z.of_nat w <= TMCG_MAX_FPOWM_T ->
  wfe G x_own -> Forall (wfe G) others -> 0 <= T < 2 ^ Z.of_nat w -> Forall (fun rb => wfe G (fst rb)) chain ->
  open_run G w x_own others others T chain = inl T.
Proof. exact open_all_shares. Qed.
Print Assumptions C01_vtmf_open.

(* Exact result when the players in `missing` do not contribute: with R the sum of all masking exponents,
   the opening returns (T + R * sum missing) mod q if that is a valid type, and the sentinel 2^w otherwise. *)
Theorem C01_vtmf_missing_share_exact : forall G w x_own others contributing missing T chain,
  wf_group G -> 2 ^ Z.of_nat w <= gq G -> Z.of_nat w <= TMCG_MAX_FPOWM_T ->
  wfe G x_own -> Forall (wfe G) others -> Permutation others (contributing ++ missing) ->
  0 <= T < 2 ^ Z.of_nat w -> Forall (fun rb => wfe G (fst rb)) chain ->
  open_run G w x_own others contributing T chain
  = inl (expected_type G w (T + zsum (map fst chain) * zsum missing)).
Proof. exact open_run_spec. Qed.
Print Assumptions C01_vtmf_missing_share_exact.

(* ... in particular never T, unless q divides R * sum missing (probability 1/q over the coins) *)
Theorem C01_vtmf_missing_share_not_T : forall G w x_own others contributing missing T chain t,
  wf_group G -> 2 ^ Z.of_nat w <= gq G -> Z.of_nat w <= TMCG_MAX_FPOWM_T ->
  wfe G x_own -> Forall (wfe G) others -> Permutation others (contributing ++ missing) ->
  0 <= T < 2 ^ Z.of_nat w -> Forall (fun rb => wfe G (fst rb)) chain ->
  (zsum (map fst chain) * zsum missing) mod gq G <> 0 ->
  open_run G w x_own others contributing T chain = inl t -> t <> T.
Proof. exact open_missing_not_T. Qed.
Print Assumptions C01_vtmf_missing_share_not_T.

(* "Returns the sentinel instead of T" holds only up to the 2^w - 1 residues that are valid types: the
   unconditional statement is refuted by a concrete run (q = 11, w = 2: type 1 opens as type 3). *)
Theorem C01_vtmf_missing_share_always_sentinel_refuted :
  exists G w x_own others contributing T chain t,
    wf_group G /\ 2 ^ Z.of_nat w <= gq G /\ wfe G x_own /\ Forall (wfe G) others /\
    contributing <> others /\ 0 <= T < 2 ^ Z.of_nat w /\
    open_run G w x_own others contributing T chain = inl t /\ t <> T /\ t <> 2 ^ Z.of_nat w.
Proof. exact open_missing_valid_type_witness. Qed.
Print Assumptions C01_vtmf_missing_share_always_sentinel_refuted.

(* The counting form of "up to negligible probability".  By C01_vtmf_missing_share_exact an opening without the players
   whose keys sum to xJ returns outcome_for G w T xJ R = expected_type G w (T + R * xJ), R the accumulated masking exponent.
   For xJ not divisible by q, R |-> (T + R*xJ) mod q permutes Z_q; so over the q residues R = 0 .. q-1: *)
Theorem C01_missing_share_count_T : forall G w T xJ, prime (gq G) -> 2 ^ Z.of_nat w <= gq G ->
  0 <= T < 2 ^ Z.of_nat w -> xJ mod gq G <> 0 ->
  length (filter (fun R => outcome_for G w T xJ R =? T) (zseq (Z.to_nat (gq G)))) = 1%nat.
Proof. exact count_correct. Qed.
Print Assumptions C01_missing_share_count_T.

Theorem C01_missing_share_count_wrong_valid : forall G w T xJ, prime (gq G) -> 2 ^ Z.of_nat w <= gq G ->
  0 <= T < 2 ^ Z.of_nat w -> xJ mod gq G <> 0 ->
  Z.of_nat (length (filter (fun R => (outcome_for G w T xJ R <? 2 ^ Z.of_nat w) && negb (outcome_for G w T xJ R =? T))
                           (zseq (Z.to_nat (gq G))))) = 2 ^ Z.of_nat w - 1.
Proof. exact count_wrong_valid. Qed.
Print Assumptions C01_missing_share_count_wrong_valid.

Theorem C01_missing_share_count_sentinel : forall G w T xJ, prime (gq G) -> 2 ^ Z.of_nat w <= gq G ->
  xJ mod gq G <> 0 ->
  Z.of_nat (length (filter (fun R => outcome_for G w T xJ R =? 2 ^ Z.of_nat w) (zseq (Z.to_nat (gq G)))))
  = gq G - 2 ^ Z.of_nat w.
Proof. exact count_sentinel. Qed.
Print Assumptions C01_missing_share_count_sentinel.

(* Verify_Update verifies first and multiplies afterwards: a rejected share leaves the decryption state d unchanged ... *)
Theorem C01_rejected_share_unchanged : forall G d dj, dec_update G d (dj, false) = (false, d).
Proof. exact rejected_update_unchanged. Qed.
Print Assumptions C01_rejected_share_unchanged.

(* ... so over an arbitrary list of update attempts only the accepted ones count, in their order ... *)
Theorem C01_only_accepted_updates_count : forall G atts d,
  dec_attempts G d atts = dec_accumulate G d (map fst (filter snd atts)).
Proof. exact dec_attempts_filter. Qed.
Print Assumptions C01_only_accepted_updates_count.

(* ... and opening after ANY interleaving of rejected offers (Bad) and correct shares (Good) returns T as soon as the
   correct shares of all other players are among the offers *)
Theorem C01_open_after_rejected_shares : forall G w x_own others atts T chain,
  wf_group G -> 2 ^ Z.of_nat w <= gq G -> Z.of_nat w <= TMCG_MAX_FPOWM_T ->
  wfe G x_own -> Forall (wfe G) others -> Permutation others (goods atts) ->
  0 <= T < 2 ^ Z.of_nat w -> Forall (fun rb => wfe G (fst rb)) chain ->
  open_run_att G w x_own others atts T chain = inl T.
Proof. exact open_after_rejected_shares. Qed.
Print Assumptions C01_open_after_rejected_shares.

(* Quadratic-residue encoding.  nqr i is player i's residuosity test, J i the units of Jacobi symbol +1 and
   U i the units modulo m_i; the premises are the algebra of a valid key (squares are residues, y_i is a
   non-residue of Jacobi symbol +1).  For every k >= 1, w, T < 2^w and every chain of maskings with admissible
   secrets, the XOR over all players of the residuosity bits is T. *)
Theorem C01_tmcg_open : forall (k w : nat) (km ky : nat -> Z) (nqr : nat -> Z -> bool)
    (J U : nat -> Z -> Prop),
  (forall i, J i 1) -> (forall i, J i (ky i)) ->
  (forall i z r, J i z -> U i r -> J i ((((r * r) mod km i) * z) mod km i)) ->
  (forall i z, J i z -> J i ((z * ky i) mod km i)) ->
  (forall i, nqr i 1 = false) -> (forall i, nqr i (ky i) = true) ->
  (forall i z r, J i z -> U i r -> nqr i ((((r * r) mod km i) * z) mod km i) = nqr i z) ->
  (forall i z, J i z -> nqr i ((z * ky i) mod km i) = negb (nqr i z)) ->
  (0 < k)%nat ->
  forall T chain, 0 <= T < 2 ^ Z.of_nat w -> Forall (good_secret k w U) chain ->
  type_of_card k w (self_bits nqr (mask_chain km ky (open_card_qr ky T) chain)) = T.
Proof. exact tmcg_open_ok. Qed.
Print Assumptions C01_tmcg_open.

(* ... restated for arbitrary announced integers: TMCG_VerifyCardSecret stores the received number unchecked and selects the
   proof by its PARITY, TMCG_TypeOfCard toggles by parity; any matrix B of announced values whose parities are the verified
   residuosities opens to T (0/1, 2, -3, 2^64 ... alike) *)
Theorem C01_tmcg_open_any_announced_bits : forall (k w : nat) (km ky : nat -> Z) (nqr : nat -> Z -> bool)
    (J U : nat -> Z -> Prop),
  (forall i, J i 1) -> (forall i, J i (ky i)) ->
  (forall i z r, J i z -> U i r -> J i ((((r * r) mod km i) * z) mod km i)) ->
  (forall i z, J i z -> J i ((z * ky i) mod km i)) ->
  (forall i, nqr i 1 = false) -> (forall i, nqr i (ky i) = true) ->
  (forall i z r, J i z -> U i r -> nqr i ((((r * r) mod km i) * z) mod km i) = nqr i z) ->
  (forall i z, J i z -> nqr i ((z * ky i) mod km i) = negb (nqr i z)) ->
  (0 < k)%nat ->
  forall T chain B, 0 <= T < 2 ^ Z.of_nat w -> Forall (good_secret k w U) chain ->
  (forall i j, (i < k)%nat -> (j < w)%nat -> Z.odd (B i j) = nqr i (mask_chain km ky (open_card_qr ky T) chain i j)) ->
  type_of_card k w B = T.
Proof. exact tmcg_open_any_bits. Qed.
Print Assumptions C01_tmcg_open_any_announced_bits.

(* the secrets TMCG_CreateCardSecret produces (row `index` = XOR of the others) are admissible *)
Theorem C01_tmcg_created_secret_admissible : forall (k w : nat) (U : nat -> Z -> Prop) index r b,
  (index < k)%nat -> (forall i j, (i < k)%nat -> (j < w)%nat -> U i (r i j)) ->
  good_secret k w U (r, complete_secret k index b).
Proof. exact completed_secret_good. Qed.
Print Assumptions C01_tmcg_created_secret_admissible.

(* a concrete group and two runs that meet the premises of the discrete-log theorems *)
Example C01_nonvacuous_group : wf_group {| gp := 23; gq := 11; gg := 2 |}.
Proof. exact small_group_wf. Qed.
Example C01_nonvacuous_run :
  open_run {| gp := 23; gq := 11; gg := 2 |} 2 3 [5; 7] [5; 7] 3 [(4, true); (9, false)] = inl 3.
Proof. vm_compute. reflexivity. Qed.
Example C01_nonvacuous_rejected :
  open_run_att {| gp := 23; gq := 11; gg := 2 |} 2 3 [5; 7] [Bad 4; Good 7; Bad 9; Bad 1; Good 5] 3 [(4, true); (9, false)] = inl 3.
Proof. vm_compute. reflexivity. Qed.
