(* SoundCutLemmas (C04): special soundness of the OR proof, and the per-card extractor of the cut-and-choose
   stack-equality proof (VTMF encoding): answers to both challenges of one round show that every card of s2 is a
   re-masking of a card of s with an exponent in [0,q) along the composed index maps. *)
From Coq Require Import ZArith NArith Znumtheory List Bool Lia.
From LT Require Import Zbase SamplerModel ShuffleModel ShuffleLemmas SoundModel SoundLemmas.
Import ListNotations.
Local Open Scope Z_scope.

Section OrExtract.
  Variables p q : Z.
  Hypothesis Hp : 1 < p.
  Hypothesis Hq : prime q.

  (* OR_Verify recomputes t_i = y_i^{c_i} g_i^{r_i} and compares (c_1 + c_2) mod q with the hash: two accepting
     transcripts with the same (t_1, t_2) and different overall challenge yield a witness for one branch *)
  Theorem or_extract_exists g1 y1 g2 y2 t1 t2 c1 c2 r1 r2 c1' c2' r1' r2' :
    powm g1 q p = 1 -> powm y1 q p = 1 -> powm g2 q p = 1 -> powm y2 q p = 1 ->
    0 <= c1 -> 0 <= c2 -> 0 <= r1 -> 0 <= r2 -> 0 <= c1' -> 0 <= c2' -> 0 <= r1' -> 0 <= r2' ->
    (powm y1 c1 p * powm g1 r1 p) mod p = t1 -> (powm y1 c1' p * powm g1 r1' p) mod p = t1 ->
    (powm y2 c2 p * powm g2 r2 p) mod p = t2 -> (powm y2 c2' p * powm g2 r2' p) mod p = t2 ->
    (c1 + c2) mod q <> (c1' + c2') mod q ->
    (exists x, 0 <= x < q /\ powm g1 x p = y1 mod p) \/ (exists x, 0 <= x < q /\ powm g2 x p = y2 mod p).
  Proof.
    intros G1 Y1 G2 Y2 Hc1 Hc2 Hr1 Hr2 Hc1' Hc2' Hr1' Hr2' A1 A1' A2 A2' N.
    destruct (Z.eq_dec (c1 mod q) (c1' mod q)) as [E1|N1].
    - right. apply (schnorr_extract_exists p q Hp Hq g2 y2 t2 r2 r2' c2 c2'); try assumption; try (now rewrite Z.mul_comm).
      intros E2. apply N. rewrite (Zplus_mod c1 c2), (Zplus_mod c1' c2'). now rewrite E1, E2.
    - left. apply (schnorr_extract_exists p q Hp Hq g1 y1 t1 r1 r1' c1 c1'); try assumption; now rewrite Z.mul_comm.
  Qed.
End OrExtract.

(* one round of TMCG_VerifyStackEquality (VTMF encoding): the answer ss1 to challenge 1 re-mixes s2 into the committed
   stack t, the answer ss0 to challenge 0 re-mixes s into the same t (the commitment is injective).  Then for every
   output position i the card of s2 designated by ss1 is a re-masking of the card of s designated by ss0, with an
   exponent in [0,q).  The statement is per card: "s2 = mix s gamma" for the composed bijection would need the inverse
   stack secret, which ShuffleModel does not define. *)
Theorem cutchoose_per_card (p q g h : Z) (s s2 t : list (Z * Z)) (ss0 ss1 : list (N * Z)) :
  1 < p -> 0 < q -> powm g q p = 1 -> powm h q p = 1 ->
  (forall j x r, nthN ss0 j = Some (x, r) -> 0 <= r) -> (forall j x r, nthN ss1 j = Some (x, r) -> 0 <= r) ->
  length s = length s2 -> (length s <= max_cards)%nat ->
  vmix p g h s2 ss1 = Ret t -> vmix p g h s ss0 = Ret t ->
  forall i, (i < length s)%nat ->
  exists a b c2 c d, (exists r0, nth_error ss1 i = Some (a, r0)) /\ nthN s2 a = Some c2 /\
                     (exists r0, nth_error ss0 i = Some (b, r0)) /\ nthN s b = Some c /\ 0 <= d < q /\
                     (fst c2 mod p, snd c2 mod p) = vmask p g h c d.
Proof.
  intros Hp Hq Hg Hh P0 P1 L Hn M1 M0 i Hi.
  destruct (mix_nth _ _ _ _ _ _ i M1 ltac:(lia) ltac:(lia)) as (a & ra0 & c2 & a' & ra & A1 & A2 & A3 & A4).
  destruct (mix_nth _ _ _ _ _ _ i M0 ltac:(lia) ltac:(lia)) as (b & rb0 & c & b' & rb & B1 & B2 & B3 & B4).
  rewrite A4 in B4. injection B4 as E1 E2.
  pose proof (P1 _ _ _ A3) as Ra. pose proof (P0 _ _ _ B3) as Rb.
  exists a, b, c2, c, ((rb + (q - 1) * ra) mod q).
  split; [now exists ra0|]. split; [assumption|]. split; [now exists rb0|]. split; [assumption|].
  split; [apply Z.mod_pos_bound; lia|].
  unfold vmask. f_equal.
  - now apply (cancel_power p q Hp Hq g (fst c2) (fst c) ra rb).
  - now apply (cancel_power p q Hp Hq h (snd c2) (snd c) ra rb).
Qed.

(* with the index component of the first answer being a permutation of 0..n-1 (what TMCG_StackSecret::import
   enforces), EVERY card of s2 is covered: no card of the shuffled stack is unrelated to the input stack *)
Corollary cutchoose_every_card (p q g h : Z) (s s2 t : list (Z * Z)) (ss0 ss1 : list (N * Z)) :
  1 < p -> 0 < q -> powm g q p = 1 -> powm h q p = 1 ->
  (forall j x r, nthN ss0 j = Some (x, r) -> 0 <= r) -> (forall j x r, nthN ss1 j = Some (x, r) -> 0 <= r) ->
  length s = length s2 -> (length s <= max_cards)%nat ->
  Permutation.Permutation (map fst ss1) (iota (length s)) ->
  vmix p g h s2 ss1 = Ret t -> vmix p g h s ss0 = Ret t ->
  forall a, (a < N.of_nat (length s))%N ->
  exists b c2 c d, nthN s2 a = Some c2 /\ nthN s b = Some c /\ 0 <= d < q /\ (fst c2 mod p, snd c2 mod p) = vmask p g h c d.
Proof.
  intros Hp Hq Hg Hh P0 P1 L Hn Perm M1 M0 a Ha.
  assert (I : In a (map fst ss1)).
  { apply (Permutation.Permutation_in a (Permutation.Permutation_sym Perm)). now apply in_iota. }
  apply In_nth_error in I. destruct I as [i Ei].
  pose proof (nth_error_lt _ _ _ Ei) as Li.
  rewrite (Permutation.Permutation_length Perm), iota_length in Li.
  destruct (cutchoose_per_card p q g h s s2 t ss0 ss1 Hp Hq Hg Hh P0 P1 L Hn M1 M0 i Li)
    as (a' & b & c2 & c & d & (r0 & A1) & A2 & _ & B2 & D & E).
  rewrite nth_error_map, A1 in Ei. cbn in Ei. injection Ei as <-.
  exists b, c2, c, d. repeat split; try assumption; lia.
Qed.
