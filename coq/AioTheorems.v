(* AioTheorems: the statements used by Properties_C13.v, assembled from AioLemmas / AioRoundtrip / AioIntegrity / AioProgress / AioFits. *)
From Coq Require Import ZArith NArith List Bool Lia.
From LT Require Import ListFacts gen_Consts CodecModel CodecLemmas AioModel AioLemmas AioRoundtrip AioIntegrity AioProgress AioFits.
Import ListNotations.
Local Open Scope Z_scope.

(* idealisation of the primitives of one link (premises of the theorems) *)
Record prims_ok (P : prims) : Prop := {
  ok_blk     : (0 < blklen P)%nat;
  ok_mac_len : forall x, length (mac P x) = maclen P;
  ok_dec_enc : forall h p, isbytes p -> c_dec P h (c_enc P h p) = p;
  ok_enc_len : forall h p, length (c_enc P h p) = length p;
  ok_enc_byte: forall h p, isbytes p -> isbytes (c_enc P h p)
}.

Theorem frag_invariance P c nonce evs os st pipe : (0 < blklen P)%nat ->
  run P c nonce rstate0 [] evs = (os, st, pipe) ->
  stream_deliveries P c nonce rstate0 (fed evs) = delivered os ++ stream_deliveries P c nonce st pipe.
Proof.
  intros B H. destruct (frag_invariant P c nonce evs rstate0 [] os st pipe (recv_wf0 P c B) H) as [D _]. exact D.
Qed.

(* two schedules carrying the same bytes: whatever one has delivered and still holds equals that of the other *)
Theorem frag_same_stream P c nonce evs1 evs2 os1 st1 p1 os2 st2 p2 : (0 < blklen P)%nat ->
  fed evs1 = fed evs2 ->
  run P c nonce rstate0 [] evs1 = (os1, st1, p1) -> run P c nonce rstate0 [] evs2 = (os2, st2, p2) ->
  delivered os1 ++ stream_deliveries P c nonce st1 p1 = delivered os2 ++ stream_deliveries P c nonce st2 p2.
Proof.
  intros B F H1 H2. rewrite <- (frag_invariance _ _ _ _ _ _ _ B H1), <- (frag_invariance _ _ _ _ _ _ _ B H2). now rewrite F.
Qed.

Theorem stream_roundtrip P c iv ms w sst :
  prims_ok P -> length iv = blklen P ->
  send_all P c iv (sstate0 c iv) ms = Some (w, sst) ->
  stream_deliveries P c iv rstate0 w = ms.
Proof.
  intros [B ML DE EL EB] IL S. exact (deliveries_honest P c iv ML DE EL EB IL ms w sst S).
Qed.

(* honest sender, any schedule: delivered so far ++ still to come = the values sent, in order, once *)
Theorem channel_roundtrip P c iv ms w sst evs os st pipe :
  prims_ok P -> length iv = blklen P ->
  send_all P c iv (sstate0 c iv) ms = Some (w, sst) ->
  fed evs = w ->
  run P c iv rstate0 [] evs = (os, st, pipe) ->
  delivered os ++ stream_deliveries P c iv st pipe = ms.
Proof.
  intros OK IL S F R.
  rewrite <- (frag_invariance _ _ _ _ _ _ _ (ok_blk _ OK) R), F.
  exact (stream_roundtrip P c iv ms w sst OK IL S).
Qed.

(* ... and once the receiver has read everything and holds no complete record, all of them have been delivered *)
Theorem roundtrip_complete P c iv ms w sst evs os st :
  prims_ok P -> length iv = blklen P ->
  send_all P c iv (sstate0 c iv) ms = Some (w, sst) ->
  fed evs = w ->
  run P c iv rstate0 [] evs = (os, st, []) ->
  first_record (eff_maclen P c) (r_buf st) = None ->
  delivered os = ms.
Proof.
  intros OK IL S F R Q.
  pose proof (channel_roundtrip P c iv ms w sst evs os st [] OK IL S F R) as H.
  destruct (frag_invariant P c iv evs rstate0 [] os st [] (recv_wf0 P c (ok_blk _ OK)) R) as [_ W].
  rewrite (nothing_left P c iv st W (or_introl Q)), app_nil_r in H. exact H.
Qed.

(* a negative integer is refused by Send on an encrypted link (nothing written, state unchanged), so every integer
   of an accepted sequence is non-negative there and the round trip needs no sign premise *)
Theorem negative_encrypted_refused P c iv st m : encr c = true -> m < 0 -> send P c iv st m = None.
Proof. exact (send_negative_refused P c iv st m). Qed.

Theorem accepted_nonnegative P c iv ms : forall st w st', encr c = true ->
  send_all P c iv st ms = Some (w, st') -> Forall (fun m => 0 <= m) ms.
Proof.
  induction ms as [|m r IH]; intros st w st' E H; [constructor|].
  cbn [send_all] in H. destruct (send P c iv st m) as [[w1 st1]|] eqn:S1; [|discriminate].
  destruct (send_all P c iv st1 r) as [[w2 st2]|] eqn:S2; [|discriminate].
  constructor; [|eapply IH; eassumption].
  destruct (Z.ltb_spec m 0) as [L|L]; [|exact L]. now rewrite (send_negative_refused P c iv st m E L) in S1.
Qed.

Lemma prefix_of_prefix {A} (a b l : list A) n : a ++ b = firstn n l -> a = firstn (length a) l.
Proof.
  intros H. rewrite <- (firstn_skipn n l), <- H, <- app_assoc. symmetry. now apply firstn_app_exact.
Qed.

Lemma delivered_prefix P c nonce ms evs os st pipe n : (0 < blklen P)%nat ->
  stream_deliveries P c nonce rstate0 (fed evs) = firstn n ms ->
  run P c nonce rstate0 [] evs = (os, st, pipe) ->
  delivered os = firstn (length (delivered os)) ms.
Proof. intros B Hn R. rewrite (frag_invariance _ _ _ _ _ _ _ B R) in Hn. eapply prefix_of_prefix. exact Hn. Qed.

(* every honest session has a trace (the hypothesis of the integrity theorems is not vacuous) *)
Lemma trace_exists P c iv : prims_ok P -> forall ms st w st', 0 <= s_chunk st ->
  send_all P c iv st ms = Some (w, st') -> exists recs, trace P c iv st ms recs.
Proof.
  intros [B ML DE EL EB]. induction ms as [|m r IH]; intros st w st' Hch H.
  - exists []. exact I.
  - cbn [send_all] in H. destruct (send P c iv st m) as [[w1 st1]|] eqn:S1; [|discriminate].
    destruct (send_all P c iv st1 r) as [[w2 st2]|] eqn:S2; [|discriminate].
    destruct (send_record P c iv ML DE EL EB st m w1 st1 Hch S1)
      as (line & tag & Hw & Fl & _ & _ & _ & _ & Hc1 & _).
    destruct (IH st1 w2 st2 Hc1 S2) as [rr T].
    exists ((line, tag) :: rr). cbn [trace]. exists w1, st1. auto.
Qed.

(* the stream an attacker hands to a fresh receiver: the IV (intact on a CFB link; any block on a CTR link; none without
   encryption) followed by arbitrary bytes s *)
Lemma integrity_fresh P c iv iv' ms recs s :
  prims_ok P -> auth c = true -> (encr c = true -> length iv' = blklen P /\ (ctr_mode c = false -> iv' = iv)) ->
  trace P c iv (sstate0 c iv) ms recs -> no_forgery P 1 recs s ->
  exists n, stream_deliveries P c iv rstate0 ((if encr c then iv' else []) ++ s) = firstn n ms.
Proof.
  intros [B ML DE EL EB] A IVok T NF. rewrite deliveries_fresh by (intros E; now destruct (IVok E)).
  apply (integrity_records P c iv ML DE EL EB A _ _ _ (sstate0 c iv) ms recs); try assumption;
    [cbn; lia|]. split; [reflexivity|]. cbn [fresh_core k_hist sstate0 s_hist].
  destruct (encr c) eqn:E; [|reflexivity]. destruct (ctr_mode c) eqn:CM; [reflexivity|].
  now rewrite (proj2 (IVok eq_refl) eq_refl).
Qed.

Theorem stream_integrity P c iv iv' ms recs s :
  prims_ok P -> length iv = blklen P -> length iv' = blklen P -> (ctr_mode c = false -> iv' = iv) ->
  auth c = true ->
  trace P c iv (sstate0 c iv) ms recs -> no_forgery P 1 recs s ->
  exists n, stream_deliveries P c iv rstate0 ((if encr c then iv' else []) ++ s) = firstn n ms.
Proof. intros OK _ IL' IVok A. apply integrity_fresh; auto. Qed.

(* ... and through any schedule: what has been delivered is a prefix of what was sent *)
Theorem channel_integrity P c iv iv' ms recs s evs os st pipe :
  prims_ok P -> length iv = blklen P -> length iv' = blklen P -> (ctr_mode c = false -> iv' = iv) ->
  auth c = true ->
  trace P c iv (sstate0 c iv) ms recs -> no_forgery P 1 recs s ->
  fed evs = (if encr c then iv' else []) ++ s ->
  run P c iv rstate0 [] evs = (os, st, pipe) ->
  delivered os = firstn (length (delivered os)) ms.
Proof.
  intros OK IL IL' IVok A T NF F R.
  destruct (stream_integrity P c iv iv' ms recs s OK IL IL' IVok A T NF) as [n Hn].
  rewrite <- F in Hn. exact (delivered_prefix _ _ _ _ _ _ _ _ _ (ok_blk _ OK) Hn R).
Qed.

Lemma fed_app a b : fed (a ++ b) = fed a ++ fed b.
Proof. induction a as [|[ch|] r IH]; cbn [fed app]; [reflexivity| |exact IH]. now rewrite IH, app_assoc. Qed.
Lemma fed_calls n : fed (repeat Call n) = [].
Proof. induction n; [reflexivity|exact IHn]. Qed.
Lemma delivered_app a b : delivered (a ++ b) = delivered a ++ delivered b.
Proof. induction a as [|o r IH]; [reflexivity|]. cbn [app]. rewrite !delivered_cons, IH. now rewrite app_assoc. Qed.

(* after any schedule, more than 3|pipe| + |buf| + 1 further calls leave nothing undelivered -- or the receive buffer is
   full of bytes without a complete record while more are waiting ("read buffer exceeded") *)
Theorem eventually_settled P c nonce evs os st pipe n os2 st2 p2 : (0 < blklen P)%nat ->
  run P c nonce rstate0 [] evs = (os, st, pipe) ->
  (mu st pipe < n)%nat ->
  run P c nonce st pipe (repeat Call n) = (os2, st2, p2) ->
  stream_deliveries P c nonce st2 p2 = [] \/ stuck P c st2 p2.
Proof.
  intros B R M R2.
  destruct (frag_invariant P c nonce evs rstate0 [] os st pipe (recv_wf0 P c B) R) as [_ W].
  pose proof (run_flag_ok P c nonce evs _ _ _ _ _ (flag_ok0 P c) R) as FO.
  exact (settle P c nonce n st pipe os2 st2 p2 W FO M R2).
Qed.

(* an honest trace: its records fit the receive buffer, and the wire is the IV (if due) followed by them *)
Lemma trace_honest P c iv : prims_ok P -> link_fits P -> forall ms st recs w st', 0 <= s_chunk st ->
  trace P c iv st ms recs -> send_all P c iv st ms = Some (w, st') ->
  good_recs P c recs /\
  w = (match ms with [] => [] | _ => if encr c && negb (s_iv_sent st) then iv else [] end) ++ flat recs.
Proof.
  intros [B ML DE EL EB] [RB _]. induction ms as [|m r IH]; intros st [|[l t] rr] w st' Hch T H; try contradiction.
  - cbn in H. injection H as <- _. split; [constructor|reflexivity].
  - destruct (trace_step P c iv ML DE EL EB _ _ _ _ _ _ Hch T)
      as (w1 & st1 & S1 & T1 & Nl & Lt & Hw & _ & _ & Hc1 & _).
    pose proof (send_len P c iv ML EL EB st m w1 st1 Hch S1) as SL.
    cbn [send_all] in H. rewrite S1 in H.
    destruct (send_all P c iv st1 r) as [[w2 st2]|] eqn:S2; [|discriminate]. injection H as <- _.
    destruct (IH st1 rr w2 st2 Hc1 T1 S2) as [G ->]. split.
    + constructor; [|exact G]. split; [exact Nl|]. split; [exact Lt|].
      rewrite Hw in SL. unfold rbytes, blen in *. cbn [fst snd]. rewrite app_length in SL.
      destruct (encr c && negb (s_iv_sent st)); cbn [length] in SL; lia.
    + destruct (send_shape P c iv st m w1 st1 S1) as (_ & _ & _ & _ & Hi & _).
      rewrite Hw. unfold flat, rbytes. cbn [map concat fst snd].
      assert (Z : (match r with [] => [] | _ => if encr c && negb (s_iv_sent st1) then iv else [] end) = []).
      { destruct r; [reflexivity|]. rewrite Hi. destruct (encr c), (s_iv_sent st); reflexivity. }
      rewrite Z. cbn [app]. rewrite <- !app_assoc. reflexivity.
Qed.

Theorem honest_never_stuck P c iv ms w sst evs os st pipe :
  prims_ok P -> link_fits P -> length iv = blklen P ->
  send_all P c iv (sstate0 c iv) ms = Some (w, sst) ->
  fed evs = w ->
  run P c iv rstate0 [] evs = (os, st, pipe) ->
  ~ stuck P c st pipe.
Proof.
  intros OK LF IL S F R.
  assert (Hch : 0 <= s_chunk (sstate0 c iv)) by (cbn; lia).
  destruct (trace_exists P c iv OK ms _ _ _ Hch S) as [recs T].
  destruct (trace_honest P c iv OK LF ms _ recs w sst Hch T S) as [G HW].
  destruct (frag_invariant P c iv evs rstate0 [] os st pipe (recv_wf0 P c (ok_blk _ OK)) R) as [_ W].
  apply (never_stuck P c (ok_blk _ OK) recs st pipe G (proj2 LF) W).
  apply (inv_run P c iv (ok_blk _ OK) recs evs G rstate0 [] os st pipe (recv_wf0 P c (ok_blk _ OK)) R).
  unfold inv. cbn [rstate0 r_buf r_iv negb app]. rewrite F, andb_true_r.
  cbn [sstate0 s_iv_sent negb] in HW. rewrite andb_true_r in HW.
  destruct (encr c).
  - destruct ms; [destruct recs; [left; exact HW|cbn in T; contradiction]|]. right. exists iv. split; [exact IL|exact HW].
  - exists O. cbn [skipn]. destruct ms; exact HW.
Qed.

(* every accepted sequence IS delivered: completely, exactly once, in order, after any fragmentation and any
   call pattern, as soon as Receive has been called more than mu times after the last byte arrived *)
Theorem roundtrip_eventually P c iv ms w sst evs os st pipe n os2 st2 p2 :
  prims_ok P -> link_fits P -> length iv = blklen P ->
  send_all P c iv (sstate0 c iv) ms = Some (w, sst) ->
  fed evs = w ->
  run P c iv rstate0 [] evs = (os, st, pipe) ->
  (mu st pipe < n)%nat ->
  run P c iv st pipe (repeat Call n) = (os2, st2, p2) ->
  delivered os ++ delivered os2 = ms.
Proof.
  intros OK LF IL S F R M R2.
  pose proof (run_app P c iv evs (repeat Call n) _ _ _ _ _ _ _ _ R R2) as RA.
  assert (FA : fed (evs ++ repeat Call n) = w) by (rewrite fed_app, fed_calls, app_nil_r; exact F).
  pose proof (channel_roundtrip P c iv ms w sst _ _ _ _ OK IL S FA RA) as H.
  destruct (eventually_settled P c iv evs os st pipe n os2 st2 p2 (ok_blk _ OK) R M R2) as [D|St].
  - rewrite D, app_nil_r, delivered_app in H. exact H.
  - destruct (honest_never_stuck P c iv ms w sst _ _ _ _ OK LF IL S FA RA St).
Qed.

Theorem stream_integrity_auth_only P c iv ms recs s :
  prims_ok P -> auth c = true -> encr c = false ->
  trace P c iv (sstate0 c iv) ms recs -> no_forgery P 1 recs s ->
  exists n, stream_deliveries P c iv rstate0 s = firstn n ms.
Proof.
  intros OK A E T NF. pose proof (integrity_fresh P c iv iv ms recs s OK A) as H. rewrite E in H.
  apply H; [discriminate|exact T|exact NF].
Qed.

Theorem channel_integrity_auth_only P c iv ms recs evs os st pipe :
  prims_ok P -> auth c = true -> encr c = false ->
  trace P c iv (sstate0 c iv) ms recs -> no_forgery P 1 recs (fed evs) ->
  run P c iv rstate0 [] evs = (os, st, pipe) ->
  delivered os = firstn (length (delivered os)) ms.
Proof.
  intros OK A E T NF R.
  destruct (stream_integrity_auth_only P c iv ms recs (fed evs) OK A E T NF) as [n Hn].
  exact (delivered_prefix _ _ _ _ _ _ _ _ _ (ok_blk _ OK) Hn R).
Qed.
