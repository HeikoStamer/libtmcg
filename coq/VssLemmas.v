(* VssLemmas: proofs about VssModel (Pedersen VSS as implemented in PedersenVSS.cc): the product of the commitments raised to the
   powers of x is the commitment to the values of the two polynomials at x (rhs_prod_commits), so honest shares pass the check
   and Feldman commitments determine the shares; the receiver's decision rules as equivalences; an accepting receiver has seen
   every complaint resolved in public (vss_accepts) and, if it complained itself, holds the published pair (fix 3258c3f). *)
From Coq Require Import ZArith Znumtheory Lia List Bool ZifyBool.
From LT Require Import Zbase VssModel.
Import ListNotations.
Local Open Scope Z_scope.

(* specification polynomial over Z, coefficients low to high *)
Fixpoint peval (cs : list Z) (x : Z) : Z := match cs with [] => 0 | a :: r => a + x * peval r x end.

Lemma poly_eval_from_spec q cs x : forall xk acc,
  poly_eval_from q cs x xk (acc mod q) = (acc + xk * peval cs x) mod q.
Proof.
  induction cs as [|a r IH]; intros xk acc; cbn [poly_eval_from peval].
  - now rewrite Z.mul_0_r, Z.add_0_r.
  - rewrite Zplus_mod_idemp_l, Zplus_mod_idemp_r, IH. f_equal. ring.
Qed.

Lemma poly_eval_peval q cs x : poly_eval q cs x = peval cs x mod q.
Proof. etransitivity; [exact (poly_eval_from_spec q cs x 1 0)|]. f_equal. ring. Qed.

Lemma poly_eval_range q cs x : 0 < q -> 0 <= poly_eval q cs x < q.
Proof. intros. rewrite poly_eval_peval. now apply Z.mod_pos_bound. Qed.

Lemma peval_nonneg cs x : Forall (fun c => 0 <= c) cs -> 0 <= x -> 0 <= peval cs x.
Proof. induction 1; cbn [peval]; intros; [lia|]. specialize (IHForall H1). nia. Qed.

(* Feldman commitments g^a_k: the running product from x^k = xk on is g^(xk f(x)) *)
Lemma rhs_from_fcommits p g x a : 0 < p -> 0 <= x -> Forall (fun c => 0 <= c) a -> forall xk acc, 0 <= xk ->
  rhs_from p (fcommits p g a) x xk (acc mod p) = (acc * powm g (xk * peval a x) p) mod p.
Proof.
  intros Hp Hx Ha. induction Ha as [|a0 a Ha0 Ha IH]; intros xk acc Hxk; cbn [fcommits map rhs_from peval].
  - now rewrite Z.mul_0_r, powm_0_r, Zmult_mod_idemp_r, Z.mul_1_r.
  - assert (0 <= xk * x) by now apply Z.mul_nonneg_nonneg.
    assert (0 <= a0 * xk) by now apply Z.mul_nonneg_nonneg.
    assert (0 <= xk * x * peval a x) by (apply Z.mul_nonneg_nonneg; [|apply peval_nonneg]; assumption).
    fold (fcommits p g a). rewrite Zmult_mod_idemp_l, IH, <- powm_mul by assumption.
    rewrite <- Z.mul_assoc, <- Zmult_mod_idemp_r, <- powm_add by assumption. do 3 f_equal. ring.
Qed.

(* Pedersen commitments g^a_k h^b_k: the product is the product of the two Feldman products *)
Lemma rhs_from_commits p g h x : 0 < p -> 0 <= x -> forall a b xk u v, 0 <= xk -> length a = length b ->
  rhs_from p (commits p g h a b) x xk ((u * v) mod p) =
  (rhs_from p (fcommits p g a) x xk (u mod p) * rhs_from p (fcommits p h b) x xk (v mod p)) mod p.
Proof.
  intros Hp Hx. induction a as [|a0 a IH]; intros [|b0 b] xk u v Hxk L; try discriminate L; cbn [commits fcommits map rhs_from].
  - apply Zmult_mod.
  - fold (fcommits p g a) (fcommits p h b). unfold commit. injection L as L.
    rewrite powm_base_mod, powm_mul_base by assumption. rewrite <- Zmult_mod, !Zmult_mod_idemp_l.
    rewrite <- IH by (assumption || nia). do 2 f_equal. ring.
Qed.

(* for bases of order dividing q the exponents are the shares f(x) mod q *)
Lemma rhs_prod_fcommits p q g a x : 1 < p -> 0 < q -> powm g q p = 1 -> Forall (fun c => 0 <= c) a -> 0 <= x ->
  rhs_from p (fcommits p g a) x 1 (1 mod p) = powm g (poly_eval q a x) p.
Proof.
  intros Hp Hq Hg Ha Hx. pose proof (peval_nonneg a x Ha Hx).
  rewrite rhs_from_fcommits, !Z.mul_1_l, poly_eval_peval, (powm_mod_order p q g) by (assumption || lia).
  apply Z.mod_small, powm_range; lia.
Qed.

Lemma rhs_prod_commits p q g h a b x : 1 < p -> 0 < q -> powm g q p = 1 -> powm h q p = 1 -> length a = length b ->
  Forall (fun c => 0 <= c) a -> Forall (fun c => 0 <= c) b -> 0 <= x ->
  rhs_prod p (commits p g h a b) x = commit p g h (poly_eval q a x) (poly_eval q b x).
Proof.
  intros. unfold rhs_prod, commit. rewrite <- !(rhs_prod_fcommits p q), <- rhs_from_commits by (assumption || lia).
  now rewrite Z.mul_1_l, Z.mod_1_l.
Qed.

(* with exponents that are not negative the check is the equation itself *)
Lemma share_ok_nonneg p g h As x s t : 0 <= s -> 0 <= t ->
  share_ok p g h As x s t = Some ((powm g s p * powm h t p) mod p =? rhs_prod p As x).
Proof. intros Hs Ht. unfold share_ok, epow. destruct (Z.ltb_spec s 0), (Z.ltb_spec t 0); (lia || reflexivity). Qed.

Section Group.
  Variables p q g h : Z.
  Hypothesis Hp : 1 < p.
  Hypothesis Hq : prime q.
  Hypothesis Hg : powm g q p = 1.
  Hypothesis Hh : powm h q p = 1.

  Let q_pos : 1 < q. Proof. destruct Hq. lia. Qed.

  (* an honest dealer's shares pass the check of every recipient (evaluation point x = index + 1) *)
  Theorem share_check_honest a b x :
    a <> [] -> length a = length b -> Forall (fun c => 0 <= c) a -> Forall (fun c => 0 <= c) b -> 0 <= x ->
    share_ok p g h (commits p g h a b) x (poly_eval q a x) (poly_eval q b x) = Some true.
  Proof.
    intros _ Hlen Ha Hb Hx. rewrite share_ok_nonneg by (apply poly_eval_range; lia).
    rewrite (rhs_prod_commits p q) by (assumption || lia). apply f_equal, Z.eqb_refl.
  Qed.

  (* the polynomial value passes the Feldman check g^s = prod C_k^(x^k), C_k = g^a_k *)
  Theorem feldman_honest a x :
    a <> [] -> Forall (fun c => 0 <= c) a -> 0 <= x ->
    powm g (poly_eval q a x) p = rhs_prod p (fcommits p g a) x.
  Proof. intros _ Ha Hx. rewrite <- (rhs_prod_fcommits p q) by (assumption || lia). unfold rhs_prod. now rewrite Z.mod_1_l. Qed.

  (* and the commitments fix the shares modulo q: whoever passes the check holds f(x) *)
  Theorem feldman_unique a x s :
    g mod p <> 1 -> a <> [] -> Forall (fun c => 0 <= c) a -> 0 <= x -> 0 <= s ->
    powm g s p = rhs_prod p (fcommits p g a) x -> s mod q = poly_eval q a x.
  Proof.
    intros Hg1 Hne Ha Hx Hs E. pose proof (poly_eval_range q a x ltac:(lia)).
    rewrite <- feldman_honest in E by assumption. apply (powm_inj_mod_q p q g Hp Hq Hg Hg1) in E; [|lia|lia].
    rewrite E. apply Z.mod_small. lia.
  Qed.
End Group.

(* complaint <-> the pair is out of range, a commitment is not a group element, or the check g^s h^t = prod_k A_k^(x^k)
   (equation (2) of Pedersen's VSS as GJKR number it) fails *)
Theorem complaint_rule p q g h As x s t c :
  recv_complaint p q g h As x s t = Some c ->
  (c = true <-> (in_range q s = false \/ in_range q t = false \/ forallb (check_element p q) As = false \/
                 share_ok p g h As x (zero_unless (in_range q s) s) (zero_unless (in_range q t) t) = Some false)).
Proof.
  unfold recv_complaint. destruct (share_ok _ _ _ _ _ _ _) as [ok|]; [|discriminate].
  intros E. injection E as <-. destruct (in_range q s), (in_range q t), (forallb _ As), ok; cbn; intuition congruence.
Qed.

Corollary inconsistent_share_complains p q g h As x s t :
  in_range q s = true -> in_range q t = true -> share_ok p g h As x s t = Some false ->
  recv_complaint p q g h As x s t = Some true.
Proof.
  intros Hs Ht E. unfold recv_complaint, zero_unless. rewrite Hs, Ht, E. cbn. now rewrite orb_true_r.
Qed.

Corollary consistent_share_no_complaint p q g h As x s t :
  in_range q s = true -> in_range q t = true -> forallb (check_element p q) As = true ->
  share_ok p g h As x s t = Some true -> recv_complaint p q g h As x s t = Some false.
Proof. intros Hs Ht HA E. unfold recv_complaint, zero_unless. rewrite Hs, Ht, E, HA. reflexivity. Qed.

Theorem disqualified_rule t c : disqualified t c = true <-> t < c.
Proof. unfold disqualified. lia. Qed.

Theorem too_many_complaints_reject p q g h n t i d As s tt streams res own :
  recv_complaint p q g h As (i + 1) s tt = Some own ->
  t < (if own then 1 else 0) + Z.of_nat (length (complaints_from n d streams)) ->
  exists sg ta, vss_receive p q g h n t i d As s tt streams res = Some {| vo_ret := false; vo_sigma := sg; vo_tau := ta |}.
Proof.
  intros E Hc. unfold vss_receive. rewrite E.
  destruct (disqualified t _) eqn:D; [eauto|]. apply Bool.not_true_iff_false in D. rewrite disqualified_rule in D. lia.
Qed.

(* what "the dealer answered every complaint correctly" means for the broadcast stream `res` *)
Inductive answered (p q g h : Z) (As : list Z) : list Z -> list Z -> Prop :=
| ans_nil res : answered p q g h As [] res
| ans_cons j from w f b res :
    who_of w = j -> in_range q f = true -> in_range q b = true ->
    share_ok p g h As (j + 1) f b = Some true ->
    answered p q g h As from res -> answered p q g h As (j :: from) (w :: f :: b :: res).

(* once set, the flag of the public resolution stays set *)
Lemma resolve_bad_sticky p q g h n i As from : forall res sg ta b sg' ta',
  resolve p q g h n i As from res true sg ta = Some (b, sg', ta') -> b = true.
Proof.
  induction from as [|j from IH]; intros res sg ta b sg' ta' E; cbn [resolve] in E.
  - now injection E as <- _ _.
  - destruct res as [|w [|f [|b0 res']]]; try (now injection E as <- _ _).
    destruct ((n <=? who_of w) || negb (who_of w =? j)); [now injection E as <- _ _|].
    cbn [orb] in E.
    destruct (share_ok _ _ _ _ _ _ _) as [[|]|]; [| |discriminate].
    + destruct (who_of w =? i); eapply IH; exact E.
    + eapply IH; exact E.
Qed.

(* a step of the resolution that ends without the flag: the next triple answers the next complaint with a valid pair
   (anything else sets the flag, for good), and the receiver adopts the pair published for its own index *)
Lemma resolve_cons_ok p q g h n i As j from res bad sg ta sg' ta' :
  resolve p q g h n i As (j :: from) res bad sg ta = Some (false, sg', ta') ->
  exists w f b res', res = w :: f :: b :: res' /\ who_of w = j /\ j < n /\ bad = false /\
    in_range q f = true /\ in_range q b = true /\ share_ok p g h As (j + 1) f b = Some true /\
    resolve p q g h n i As from res' false (if j =? i then f else sg) (if j =? i then b else ta) = Some (false, sg', ta').
Proof.
  cbn [resolve]. destruct res as [|w [|f [|b res']]]; try discriminate.
  destruct ((n <=? who_of w) || negb (who_of w =? j)) eqn:W; [discriminate|].
  apply orb_false_elim in W as [W1 W2]. apply negb_false_iff, Z.eqb_eq in W2. subst j. apply Z.leb_gt in W1.
  (* in every case but the all-good one the recursive call runs with the flag set, and resolve_bad_sticky refutes E *)
  destruct bad, (in_range q f) eqn:Rf, (in_range q b) eqn:Rb; cbn [zero_unless negb orb];
    destruct (share_ok _ _ _ _ _ _ _) as [[|]|] eqn:S; intros E; try discriminate E;
    try (destruct (who_of w =? i)); try (apply resolve_bad_sticky in E; discriminate E).
  all: exists w, f, b, res'; auto 10.
Qed.

Lemma resolve_answered p q g h n i As from : forall res bad sg ta sg' ta',
  resolve p q g h n i As from res bad sg ta = Some (false, sg', ta') -> answered p q g h As from res.
Proof.
  induction from as [|j from IH]; intros res bad sg ta sg' ta' E; [constructor|].
  apply resolve_cons_ok in E as (w & f & b & res' & -> & Hw & _ & _ & Rf & Rb & S & E). constructor; eauto.
Qed.

(* the public resolution accepts exactly the streams that answer every complaint, in order, with a valid pair *)
Theorem resolve_rule p q g h n i As from res sg ta :
  Forall (fun j => j < n) from ->
  ((exists sg' ta', resolve p q g h n i As from res false sg ta = Some (false, sg', ta')) <-> answered p q g h As from res).
Proof.
  intros Hn. split; [intros (sg' & ta' & E); eapply resolve_answered; exact E|].
  intros A. revert sg ta. induction A as [|j from w f b res' Hw Rf Rb S A IH]; intros sg ta; cbn [resolve]; [eauto|].
  inversion Hn as [|? ? Hj Hn']; subst.
  destruct (Z.leb_spec n (who_of w)); [lia|]. rewrite Z.eqb_refl, Rf, Rb. cbn [zero_unless negb orb]. rewrite S.
  destruct (who_of w =? i); now apply IH.
Qed.

(* the pair held after an accepting resolution: if the receiver's index is among the resolved complaints (or its pair was
   consistent before), the pair it ends with satisfies the check *)
Lemma resolve_own_pair p q g h n i As from : forall res bad sg ta sg' ta',
  resolve p q g h n i As from res bad sg ta = Some (false, sg', ta') ->
  In i from \/ share_ok p g h As (i + 1) sg ta = Some true ->
  share_ok p g h As (i + 1) sg' ta' = Some true.
Proof.
  induction from as [|j from IH]; intros res bad sg ta sg' ta' E H.
  - injection E as _ <- <-. destruct H as [[]|H]; exact H.
  - apply resolve_cons_ok in E as (w & f & b & res' & _ & _ & _ & _ & _ & _ & S & E). eapply IH; [exact E|].
    destruct (Z.eqb_spec j i) as [->|N]; [now right|]. destruct H as [[Hj|Hin]|H]; [congruence|now left|now right].
Qed.

Lemma in_ins_sorted i l : In i (ins_sorted i l).
Proof. induction l as [|j r IH]; cbn [ins_sorted]; [now left|]. destruct (i <? j); [now left|now right]. Qed.
Lemma length_ins_sorted i l : length (ins_sorted i l) = S (length l).
Proof. induction l as [|j r IH]; cbn [ins_sorted length]; [reflexivity|]. destruct (i <? j); cbn [length]; now rewrite ?IH. Qed.

Lemma recv_from_length n d i own streams :
  Z.of_nat (length (recv_from n d i own streams)) = (if own then 1 else 0) + Z.of_nat (length (complaints_from n d streams)).
Proof. unfold recv_from. destruct own; [rewrite length_ins_sorted|]; lia. Qed.

(* a receiver returns true only through the public resolution of all complaints (none, if there was no complaint) *)
Lemma vss_accepts p q g h n t i d As s tt streams res own o :
  recv_complaint p q g h As (i + 1) s tt = Some own ->
  vss_receive p q g h n t i d As s tt streams res = Some o -> vo_ret o = true ->
  resolve p q g h n i As (recv_from n d i own streams) res false
          (zero_unless (in_range q s) s) (zero_unless (in_range q tt) tt) = Some (false, vo_sigma o, vo_tau o).
Proof.
  intros C E Hr. unfold vss_receive in E. rewrite C, <- (recv_from_length n d i) in E.
  destruct (disqualified t _); [injection E as <-; discriminate|].
  destruct (0 <? _) eqn:Cn.
  - destruct (resolve _ _ _ _ _ _ _ _ _ _ _ _) as [[[bad sg] ta]|]; [|discriminate].
    injection E as <-. apply negb_true_iff in Hr. now rewrite <- Hr.
  - injection E as <-. destruct (recv_from n d i own streams); [reflexivity|cbn [length] in Cn; lia].
Qed.

(* a receiver that returns true after complaints has seen a correct public answer for every complaint, its own included *)
Theorem accept_means_answered p q g h n t i d As s tt streams res own sg ta :
  i < n -> Forall (fun js => fst js < n) streams ->
  recv_complaint p q g h As (i + 1) s tt = Some own ->
  vss_receive p q g h n t i d As s tt streams res = Some {| vo_ret := true; vo_sigma := sg; vo_tau := ta |} ->
  answered p q g h As (recv_from n d i own streams) res \/ recv_from n d i own streams = [].
Proof. intros _ _ C E. left. eapply resolve_answered, vss_accepts; eauto. Qed.

(* "forced to publish consistent ones": a receiver that complained and accepts the dealer holds a pair matching the commitments *)
Theorem complainer_corrected p q g h n t i d As s tt streams res o :
  recv_complaint p q g h As (i + 1) s tt = Some true ->
  vss_receive p q g h n t i d As s tt streams res = Some o -> vo_ret o = true ->
  share_ok p g h As (i + 1) (vo_sigma o) (vo_tau o) = Some true.
Proof. intros C E Hr. eapply resolve_own_pair; [exact (vss_accepts _ _ _ _ _ _ _ _ _ _ _ _ _ _ _ C E Hr)|]. left. apply in_ins_sorted. Qed.

(* a receiver that did not complain keeps a consistent pair *)
Theorem noncomplainer_consistent p q g h n t i d As s tt streams res o :
  recv_complaint p q g h As (i + 1) s tt = Some false ->
  vss_receive p q g h n t i d As s tt streams res = Some o -> vo_ret o = true ->
  share_ok p g h As (i + 1) (vo_sigma o) (vo_tau o) = Some true.
Proof.
  intros C E Hr. eapply resolve_own_pair; [exact (vss_accepts _ _ _ _ _ _ _ _ _ _ _ _ _ _ _ C E Hr)|]. right.
  unfold recv_complaint in C. destruct (share_ok _ _ _ _ _ _ _) as [[|]|]; [reflexivity| |discriminate].
  injection C as C. now rewrite orb_true_r in C.
Qed.

(* the flag computed by the public resolution does not depend on the receiver's identity or current pair *)
Lemma resolve_flag_indep p q g h n As from : forall res bad i1 i2 sg1 ta1 sg2 ta2 r1 r2,
  resolve p q g h n i1 As from res bad sg1 ta1 = Some r1 ->
  resolve p q g h n i2 As from res bad sg2 ta2 = Some r2 -> fst (fst r1) = fst (fst r2).
Proof.
  induction from as [|j from IH]; intros res bad i1 i2 sg1 ta1 sg2 ta2 r1 r2 E1 E2; cbn [resolve] in E1, E2.
  - injection E1 as <-. injection E2 as <-. reflexivity.
  - destruct res as [|w [|f [|b res']]]; try (injection E1 as <-; injection E2 as <-; reflexivity).
    destruct ((n <=? who_of w) || negb (who_of w =? j)); [injection E1 as <-; injection E2 as <-; reflexivity|].
    destruct (share_ok _ _ _ _ _ _ _) as [[|]|]; [| |discriminate].
    + destruct (who_of w =? i1), (who_of w =? i2); eapply IH; eauto.
    + eapply IH; eauto.
Qed.

(* qualification is a function of broadcast values only: the verdict depends on the sorted list of complaining parties (every
   complaint, the receiver's own included, is a broadcast) and on the dealer's broadcast answer - not on who evaluates it *)
Theorem verdict_from_broadcasts p q g h n t i1 i2 d As s1 t1 s2 t2 streams1 streams2 res o1 o2 c1 c2 :
  recv_complaint p q g h As (i1 + 1) s1 t1 = Some c1 -> recv_complaint p q g h As (i2 + 1) s2 t2 = Some c2 ->
  recv_from n d i1 c1 streams1 = recv_from n d i2 c2 streams2 ->
  vss_receive p q g h n t i1 d As s1 t1 streams1 res = Some o1 ->
  vss_receive p q g h n t i2 d As s2 t2 streams2 res = Some o2 -> vo_ret o1 = vo_ret o2.
Proof.
  intros C1 C2 F E1 E2. unfold vss_receive in *. rewrite C1 in E1. rewrite C2 in E2.
  pose proof (recv_from_length n d i1 c1 streams1) as L1. pose proof (recv_from_length n d i2 c2 streams2) as L2.
  rewrite F in L1. rewrite <- L1 in E1. rewrite <- L2 in E2. rewrite F in E1.
  destruct (disqualified t _); [injection E1 as <-; injection E2 as <-; reflexivity|].
  destruct (0 <? _); [|injection E1 as <-; injection E2 as <-; reflexivity].
  destruct (resolve p q g h n i1 _ _ _ _ _ _) as [[[b1 sg1] ta1]|] eqn:R1; [|discriminate].
  destruct (resolve p q g h n i2 _ _ _ _ _ _) as [[[b2 sg2] ta2]|] eqn:R2; [|discriminate].
  injection E1 as <-. injection E2 as <-. cbn [vo_ret].
  pose proof (resolve_flag_indep _ _ _ _ _ _ _ _ _ _ _ _ _ _ _ _ _ R1 R2) as Fl. cbn [fst] in Fl. now rewrite Fl.
Qed.
