(* RbcOrder: DeliverFrom and sequences of calls at one party (FIFO order, no duplicates, channel isolation), and the channel
   switches setID / unsetID / recoverID: counters are saved and restored (C14). *)
From Coq Require Import ZArith List Bool Lia.
From LT Require Import RbcModel RbcLemmas.
Import ListNotations.
Local Open Scope Z_scope.

Section Order.
Variables (n t skip : Z) (H : Z -> Z) (toolong : tagT -> Z -> bool).
Notation deliver := (deliver n t skip H toolong).
Notation deliver_from := (deliver_from n t skip H toolong).
Notation deliver_res_ok := (deliver_res_ok skip).

Lemma take_chan_spec : forall c l pre v rest, take_chan c pre l = Some (v, rest) ->
  In (v, c) l /\ forall x, In x rest -> In x (rev pre) \/ In x l.
Proof.
  intros c. induction l as [|[v0 id0] r IH]; intros pre v rest; cbn [take_chan].
  - discriminate.
  - destruct (Z.eqb_spec id0 c).
    + intros E; inversion E; subst. split; [left; reflexivity|].
      intros x I. apply in_app_or in I. destruct I; [left|right; right]; auto.
    + intros E. apply IH in E. destruct E as [E1 E2]. split; [right; exact E1|].
      intros x I. apply E2 in I. cbn in I. destruct I as [I|I]; [|right; right; exact I].
      apply in_app_or in I. destruct I as [I|[I|[]]]; [left; exact I|right; left; exact I].
Qed.

Lemma deliver_from_spec : forall me st i off,
  let o := fst (deliver_from me st i off) in
  cur (o_st o) = cur st /\ sq (o_st o) = sq st /\ fifo (o_st o) = fifo st /\ deliver_res_ok st (o_st o) (o_res o) /\
  match snd (deliver_from me st i off) with
  | Some v => In (v, cur st) (fbuf st i) /\ o_res o = RNone
  | None => True
  end /\
  (* the per-sender buffers only grow by the value just delivered, stamped with the current channel *)
  (forall w v c, In (v, c) (fbuf (o_st o) w) ->
     In (v, c) (fbuf st w) \/ (c = cur st /\ exists tg, o_res o = RDeliver w tg v)).
Proof.
  intros me st i off. remember (deliver_from me st i off) as ov eqn:E. unfold RbcModel.deliver_from in E.
  destruct ((i <? 0) || (i >=? n)); [subst ov; cbn; repeat split; auto|].
  destruct (take_chan (cur st) [] (fbuf st i)) as [[v rest]|] eqn:T.
  - apply take_chan_spec in T. destruct T as [T1 T2]. subst ov.
    cbn. split; [reflexivity|]. split; [reflexivity|]. split; [reflexivity|]. split; [auto|]. split; [split; auto|].
    intros w v0 c. unfold updZ. destruct (Z.eqb_spec w i); auto.
    subst w. intros I. left. apply T2 in I. destruct I as [[]|I]; exact I.
  - pose proof (deliver_spec n t skip H toolong me st off) as D. destruct D as [Sc D].
    destruct Sc as (C1&C2&C3&C4&C5&C6).
    destruct (o_res (deliver me st off)) eqn:R; subst ov; cbn; rewrite ?R.
    + repeat split; auto. intros w v c I. left. rewrite C6. exact I.
    + split; [auto|]. split; [auto|]. split; [auto|]. split; [exact D|]. split; [exact I|].
      intros w v0 c. unfold updZ. destruct (Z.eqb_spec w who).
      * subst w. intros I. apply in_app_or in I. destruct I as [I|I].
        -- left. rewrite C6. exact I.
        -- right. destruct I as [I|[]]. inversion I; subst. split; [reflexivity|]. eauto.
      * intros I. left. rewrite C6. exact I.
    + repeat split; auto. intros w v c I. left. rewrite C6. exact I.
Qed.

Notation lstep := (lstep n t skip H toolong).
Notation lrun := (lrun n t skip H toolong).

Lemma lstep_spec : forall me st c st1 d1, lstep me st c = (st1, d1) ->
  cur st1 = cur st /\ fifo st1 = fifo st /\
  (d1 = [] /\ (skip = 0 -> dls st1 = dls st) \/
   exists who s v, d1 = [(who, (cur st, who, s), v)] /\
                   (fifo st = true -> dls st1 who = s + 1) /\
                   (skip = 0 -> dls st1 = updZ (dls st) who (dls st who + 1)) /\
                   (fifo st = true -> skip = 0 -> s = dls st who)).
Proof.
  intros me st c st1 d1. destruct c as [off|i off]; cbn [RbcModel.lstep].
  - pose proof (deliver_spec n t skip H toolong me st off) as [(C1&_&C3&_) D].
    intros E; inversion E; subst; clear E. split; [auto|]. split; [auto|].
    destruct (o_res (deliver me st off)); cbn in *; auto.
    destruct D as ((s & -> & A & B) & U). right. exists who, s, v. repeat split; auto.
  - pose proof (deliver_from_spec me st i off) as D. cbv zeta in D. destruct D as (C1 & _ & C3 & D & _).
    intros E; inversion E; subst; clear E. split; [auto|]. split; [auto|].
    destruct (o_res (fst (deliver_from me st i off))); cbn in *; auto.
    destruct D as ((s & -> & A & B) & U). right. exists who, s, v. repeat split; auto.
Qed.

Lemma seq_shift_map : forall (a : Z) len,
  a :: map (fun k => a + 1 + Z.of_nat k) (seq 0 len) = map (fun k => a + Z.of_nat k) (seq 0 (S len)).
Proof.
  intros a len. cbn [seq map]. f_equal; [lia|].
  rewrite <- seq_shift, map_map. apply map_ext. intros k. lia.
Qed.

(* FIFO order and no duplicates: on a FIFO channel (fifo_skip = 0) the deliveries from one sender carry the
   consecutive sequence numbers deliver_s, deliver_s + 1, ... in this order, whatever the party receives *)
Theorem fifo_consecutive : skip = 0 -> forall me cs st st' ds, fifo st = true -> lrun me st cs = (st', ds) ->
  cur st' = cur st /\ fifo st' = true /\
  Forall (fun d => id_of d = cur st /\ j_of d = who_of d) ds /\
  forall w, map s_of (from_sender w ds) = map (fun k => dls st w + Z.of_nat k) (seq 0 (length (from_sender w ds))) /\
            dls st' w = dls st w + Z.of_nat (length (from_sender w ds)).
Proof.
  intros Z0 me. induction cs as [|c r IH]; intros st st' ds F; cbn [RbcModel.lrun].
  - intros E; inversion E; subst st' ds. repeat split; auto. cbn. lia.
  - destruct (lstep me st c) as [st1 d1] eqn:L. destruct (lrun me st1 r) as [st2 d2] eqn:R.
    intros E; inversion E; subst st' ds; clear E.
    apply lstep_spec in L. destruct L as (C1 & C3 & L).
    assert (F1 : fifo st1 = true) by congruence.
    specialize (IH _ _ _ F1 R). destruct IH as (I1 & I2 & I3 & I4).
    split; [congruence|]. split; [auto|].
    destruct L as [[-> D]|(who & s & v & -> & A & U & B)].
    + cbn [app]. split; [rewrite <- C1; exact I3|]. intros w. rewrite <- (D Z0). apply I4.
    + specialize (B F Z0). rewrite B in *. clear B. split.
      * constructor; [cbn; auto|]. rewrite <- C1; exact I3.
      * intros w. specialize (I4 w). destruct I4 as [I4 I5]. rewrite (U Z0) in I4, I5.
        unfold from_sender in *. cbn [app filter who_of fst].
        destruct (Z.eqb_spec who w).
        -- subst w. rewrite updZ_same in I4, I5. cbn [map length s_of snd fst]. rewrite I4. split.
           ++ apply seq_shift_map.
           ++ rewrite I5. lia.
        -- rewrite updZ_other in I4, I5 by congruence. auto.
Qed.

Lemma NoDup_map_inj_seq : forall (a : Z) len, NoDup (map (fun k => a + Z.of_nat k) (seq 0 len)).
Proof.
  intros a len. apply FinFun.Injective_map_NoDup; [|apply seq_NoDup]. intros x y E. lia.
Qed.

Corollary fifo_no_duplicate : skip = 0 -> forall me cs st st' ds, fifo st = true -> lrun me st cs = (st', ds) ->
  forall w, NoDup (map s_of (from_sender w ds)).
Proof.
  intros Z0 me cs st st' ds F R w. destruct (fifo_consecutive Z0 me cs st st' ds F R) as (_ & _ & _ & A).
  destruct (A w) as [-> _]. apply NoDup_map_inj_seq.
Qed.

(* channel isolation for any mode and any fifo_skip: whatever Deliver hands out carries the current channel
   identifier in its tag, and the tag sender is the reported sender *)
Theorem deliver_isolation : forall me st off who tg v,
  o_res (deliver me st off) = RDeliver who tg v -> exists s, tg = (cur st, who, s).
Proof.
  intros me st off who tg v R. pose proof (deliver_spec n t skip H toolong me st off) as [_ D].
  rewrite R in D. cbn in D. destruct D as ((s & E & _) & _). eauto.
Qed.

(* DeliverFrom hands out only values that sit in the buffer of that sender under the current channel identifier,
   and the buffers are filled only by deliveries of Deliver, stamped with the channel they were made on *)
Theorem deliver_from_isolation : forall me st i off v,
  snd (deliver_from me st i off) = Some v -> In (v, cur st) (fbuf st i).
Proof.
  intros me st i off v E. pose proof (deliver_from_spec me st i off) as D. cbv zeta in D.
  destruct D as (_ & _ & _ & _ & D & _). rewrite E in D. tauto.
Qed.

Theorem deliver_from_buffers : forall me st i off w v c,
  In (v, c) (fbuf (o_st (fst (deliver_from me st i off))) w) ->
  In (v, c) (fbuf st w) \/ (c = cur st /\ exists s, o_res (fst (deliver_from me st i off)) = RDeliver w (cur st, w, s) v).
Proof.
  intros me st i off w v c I. pose proof (deliver_from_spec me st i off) as D. cbv zeta in D.
  destruct D as (_ & _ & _ & R & _ & D). apply D in I. destruct I as [I|(-> & tg & E)]; auto.
  right. split; auto. rewrite E in R. cbn in R. destruct R as ((s & -> & _) & _). eauto.
Qed.

End Order.

Lemma set_then_unset : forall st id f f', 
  let st' := unset_id (set_id st id f) f' in
  cur st' = cur st /\ sq st' = sq st /\ dls st' = dls st /\ stack st' = stack st /\ fifo st' = f'.
Proof. intros. subst st'. unfold unset_id, set_id. cbn. repeat split. Qed.

Lemma unset_then_recover : forall st f f',
  let st' := recover_id (unset_id st f) (cur st) f' in
  cur st' = cur st /\ sq st' = sq st /\ dls st' = dls st /\ fifo st' = f'.
Proof.
  intros. subst st'. unfold recover_id, unset_id.
  destruct (stack st) as [|[[i s] d] k]; cbn; rewrite updZ_same; cbn; repeat split.
Qed.

Definition leave_enter (st : pst) (f f' : bool) : pst := recover_id (unset_id st f) (cur st) f'.

(* leaving a (nested) channel and coming back changes nothing but the recovery table, whose entry for this channel is
   REFRESHED with the current counters -- whatever entry it held before (first, second, k-th unsetID alike) *)
Lemma leave_enter_spec : forall st f f' i s d k, stack st = (i, s, d) :: k ->
  leave_enter st f f' =
  Pst (cur st) (sq st) f' (stack st) (updZ (recov st) (cur st) (Some (sq st, dls st)))
      (filt st) (mbar st) (dbar st) (ed st) (rd st) (dls st) (dbuf st) (derr st) (rbuf st) (fbuf st).
Proof.
  intros st f f' i s d k E. unfold leave_enter, recover_id, unset_id. rewrite E. cbn. rewrite updZ_same. cbn. reflexivity.
Qed.

Fixpoint leave_enter_k (k : nat) (st : pst) (f : bool) : pst :=
  match k with O => st | S k' => leave_enter (leave_enter_k k' st f) f true end.

Theorem recover_k_fold : forall k st f i s d r, stack st = (i, s, d) :: r ->
  let st' := leave_enter_k k st f in
  cur st' = cur st /\ sq st' = sq st /\ dls st' = dls st /\ stack st' = stack st /\
  (k <> O -> recov st' (cur st) = Some (sq st, dls st)).
Proof.
  induction k as [|k IH]; intros st f i s d r E; cbv zeta.
  - cbn. repeat split; auto. intros N; contradiction.
  - cbn [leave_enter_k]. destruct (IH st f i s d r E) as (C & S & D & K & _).
    set (x := leave_enter_k k st f) in *.
    assert (Ex : stack x = (i, s, d) :: r) by congruence.
    rewrite (leave_enter_spec x f true i s d r Ex). cbn. rewrite C, S, D. repeat split; auto.
    intros _. apply updZ_same.
Qed.

(* whatever state u makes of the party between two visits (u is unconstrained), leaving and coming back keeps the channel
   and the counters of that state: unset_then_recover at u's result *)
Theorem recover_after_traffic : forall st f1 f2 f3 f4 (u : pst -> pst),
  let st1 := leave_enter st f1 f2 in let st2 := u st1 in let st3 := leave_enter st2 f3 f4 in
  cur st3 = cur st2 /\ sq st3 = sq st2 /\ dls st3 = dls st2.
Proof. intros. destruct (unset_then_recover st2 f3 f4) as (A & B & C & _). auto. Qed.
