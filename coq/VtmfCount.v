(* VtmfCount -- the counting form of "up to negligible probability" in C01: with the key part x_J of the missing
   players not divisible by q, the map R |-> (T + R * x_J) mod q permutes Z_q; hence of the q possible accumulated masking
   exponents exactly one opens to T, exactly 2^w - 1 open to a wrong valid type and q - 2^w to the sentinel. *)
From Coq Require Import ZArith Znumtheory Lia List Bool ZifyBool.
From LT Require Import ListFacts Zbase gen_Consts PowmModel PowmLemmas VtmfModel VtmfLemmas.
Import ListNotations.
Local Open Scope Z_scope.

Definition zseq (n : nat) : list Z := map Z.of_nat (seq 0 n).

Lemma zseq_In (n : nat) (x : Z) : In x (zseq n) <-> 0 <= x < Z.of_nat n.
Proof.
  unfold zseq. rewrite in_map_iff. split.
  - intros (k & <- & Hk). apply in_seq in Hk. lia.
  - intros H. exists (Z.to_nat x). split; [lia|]. apply in_seq. lia.
Qed.

Lemma zseq_S (n : nat) : zseq (S n) = zseq n ++ [Z.of_nat n].
Proof. unfold zseq. rewrite seq_S, map_app. reflexivity. Qed.

Lemma zseq_NoDup (n : nat) : NoDup (zseq n).
Proof. apply NoDup_map_inj_in; [apply seq_NoDup|intros x y _ _ H; lia]. Qed.

(* an injection of a duplicate-free list into itself is onto, hence preserves counts *)
Lemma injection_count (l : list Z) (f : Z -> Z) (P : Z -> bool) : NoDup l ->
  (forall x, In x l -> In (f x) l) -> (forall x y, In x l -> In y l -> f x = f y -> x = y) ->
  length (filter (fun x => P (f x)) l) = length (filter P l).
Proof.
  intros ND Hin Hinj.
  assert (Onto : incl l (map f l)).
  { apply NoDup_length_incl; [now apply NoDup_map_inj_in|now rewrite map_length|].
    intros y Hy. apply in_map_iff in Hy. destruct Hy as (x & <- & Hx). auto. }
  rewrite <- (map_length f (filter _ l)). apply Nat.le_antisymm; apply NoDup_incl_length.
  - apply NoDup_map_inj_in; [now apply NoDup_filter|].
    intros x y Hx Hy. apply filter_In in Hx, Hy. apply Hinj; tauto.
  - intros y Hy. apply in_map_iff in Hy. destruct Hy as (x & <- & Hx). apply filter_In in Hx.
    apply filter_In. split; [apply Hin|]; tauto.
  - now apply NoDup_filter.
  - intros y Hy. apply filter_In in Hy. destruct Hy as [Hy Py]. apply Onto, in_map_iff in Hy.
    destruct Hy as (x & <- & Hx). apply in_map, filter_In. tauto.
Qed.

Lemma count_lt (n a : nat) : length (filter (fun t => t <? Z.of_nat a) (zseq n)) = Nat.min a n.
Proof.
  induction n as [|n IH]; [cbn; lia|].
  rewrite zseq_S, filter_app, app_length, IH. cbn [filter].
  destruct (Z.ltb_spec (Z.of_nat n) (Z.of_nat a)); cbn [length]; lia.
Qed.

Lemma count_ge (n a : nat) : length (filter (fun t => negb (t <? Z.of_nat a)) (zseq n)) = (n - a)%nat.
Proof.
  induction n as [|n IH]; [reflexivity|].
  rewrite zseq_S, filter_app, app_length, IH. cbn [filter].
  destruct (Z.ltb_spec (Z.of_nat n) (Z.of_nat a)); cbn [negb length]; lia.
Qed.

Lemma count_eq (n : nat) (T : Z) : 0 <= T < Z.of_nat n -> length (filter (fun t => t =? T) (zseq n)) = 1%nat.
Proof.
  (* the induction needs the count for every n, also n <= T *)
  intros [H0 H]. assert (G : length (filter (fun t => t =? T) (zseq n)) = if T <? Z.of_nat n then 1%nat else 0%nat).
  { clear H. induction n as [|n IH]; [destruct (Z.ltb_spec T (Z.of_nat 0)); [lia|reflexivity]|].
    rewrite zseq_S, filter_app, app_length, IH. cbn [filter].
    destruct (Z.eqb_spec (Z.of_nat n) T), (Z.ltb_spec T (Z.of_nat n)), (Z.ltb_spec T (Z.of_nat (S n))); cbn [length]; lia. }
  rewrite G. destruct (Z.ltb_spec T (Z.of_nat n)); [reflexivity|lia].
Qed.

Lemma filter_split_length (l : list Z) (p r : Z -> bool) :
  (length (filter (fun x => p x && negb (r x)) l) + length (filter (fun x => p x && r x) l) = length (filter p l))%nat.
Proof.
  induction l as [|x l IH]; [reflexivity|]. cbn [filter].
  destruct (p x), (r x); cbn [andb negb length]; lia.
Qed.

Section Counting.
  Variable G : group.
  Variable w : nat.
  Variables T xJ : Z.
  Hypothesis Hq : prime (gq G).
  Hypothesis Hw : 2 ^ Z.of_nat w <= gq G.
  Hypothesis HT : 0 <= T < 2 ^ Z.of_nat w.
  Hypothesis HxJ : xJ mod gq G <> 0.
  Let q := gq G.
  Let n := Z.to_nat q.
  Let q2 : 2 <= q. Proof. now apply prime_ge_2. Qed.

  (* what the opening returns when the accumulated masking exponent is R and the key part xJ is missing *)
  Definition outcome_for (R : Z) : Z := expected_type G w (T + R * xJ).

  Let Nq : Z.of_nat n = q. Proof. unfold n. lia. Qed.

  Definition residue_for (R : Z) : Z := (T + R * xJ) mod q.

  Lemma residue_injection :
    (forall x, In x (zseq n) -> In (residue_for x) (zseq n)) /\
    (forall x y, In x (zseq n) -> In y (zseq n) -> residue_for x = residue_for y -> x = y).
  Proof.
    destruct (invm_prime xJ q Hq HxJ) as [i Hi]. apply invm_inverse in Hi; [|lia]. destruct Hi as [_ Hi].
    (* multiplying by the inverse of xJ undoes residue_for *)
    assert (C : forall t, In t (zseq n) -> ((residue_for t - T) * i) mod q = t).
    { intros t Ht. apply zseq_In in Ht. rewrite Nq in Ht. unfold residue_for.
      rewrite <- Zmult_mod_idemp_l, Zminus_mod_idemp_l, Zmult_mod_idemp_l.
      replace ((T + t * xJ - T) * i) with (t * (xJ * i)) by ring.
      rewrite <- Zmult_mod_idemp_r, Hi, Z.mul_1_r. apply Z.mod_small. lia. }
    split.
    - intros x _. apply zseq_In. rewrite Nq. apply Z.mod_pos_bound. lia.
    - intros x y Hx Hy E. rewrite <- (C x Hx), <- (C y Hy), E. reflexivity.
  Qed.

  Definition reported (t : Z) : Z := if t <? 2 ^ Z.of_nat w then t else 2 ^ Z.of_nat w.

  Lemma count_via (P : Z -> bool) :
    length (filter (fun R => P (outcome_for R)) (zseq n)) = length (filter (fun t => P (reported t)) (zseq n)).
  Proof.
    destruct residue_injection as [H1 H2].
    rewrite <- (injection_count (zseq n) residue_for (fun t => P (reported t)) (zseq_NoDup n) H1 H2).
    reflexivity.
  Qed.

  Let W := Z.to_nat (2 ^ Z.of_nat w).
  Let HW : Z.of_nat W = 2 ^ Z.of_nat w. Proof. unfold W. lia. Qed.

  Theorem count_correct : length (filter (fun R => outcome_for R =? T) (zseq n)) = 1%nat.
  Proof.
    rewrite (count_via (fun t => t =? T)).
    rewrite (filter_ext_in _ (fun t => t =? T)); [apply count_eq; lia|].
    intros t Ht. unfold reported. destruct (Z.ltb_spec t (2 ^ Z.of_nat w)); [reflexivity|].
    destruct (Z.eqb_spec (2 ^ Z.of_nat w) T), (Z.eqb_spec t T); lia.
  Qed.

  Theorem count_sentinel :
    Z.of_nat (length (filter (fun R => outcome_for R =? 2 ^ Z.of_nat w) (zseq n))) = q - 2 ^ Z.of_nat w.
  Proof.
    rewrite (count_via (fun t => t =? 2 ^ Z.of_nat w)).
    rewrite (filter_ext_in _ (fun t => negb (t <? Z.of_nat W))).
    - rewrite count_ge. lia.
    - intros t Ht. rewrite HW. unfold reported. destruct (Z.ltb_spec t (2 ^ Z.of_nat w)); cbn [negb]; [|apply Z.eqb_refl].
      destruct (Z.eqb_spec t (2 ^ Z.of_nat w)); [lia|reflexivity].
  Qed.

  Theorem count_wrong_valid :
    Z.of_nat (length (filter (fun R => (outcome_for R <? 2 ^ Z.of_nat w) && negb (outcome_for R =? T)) (zseq n)))
    = 2 ^ Z.of_nat w - 1.
  Proof.
    rewrite (count_via (fun t => (t <? 2 ^ Z.of_nat w) && negb (t =? T))).
    rewrite (filter_ext_in _ (fun t => (t <? Z.of_nat W) && negb (t =? T))).
    - pose proof (filter_split_length (zseq n) (fun t => t <? Z.of_nat W) (fun t => t =? T)) as S.
      rewrite (count_lt n W) in S.
      rewrite (filter_ext_in (fun x => (x <? Z.of_nat W) && (x =? T)) (fun t => t =? T)) in S.
      + rewrite (count_eq n T) in S by lia. lia.
      + intros t _. destruct (Z.eqb_spec t T); [|apply andb_false_r]. subst t. rewrite andb_true_r. lia.
    - intros t Ht. rewrite HW. unfold reported. destruct (Z.ltb_spec t (2 ^ Z.of_nat w)) as [L|L].
      + now rewrite (proj2 (Z.ltb_lt _ _) L).
      + now rewrite Z.ltb_irrefl.
  Qed.
End Counting.
