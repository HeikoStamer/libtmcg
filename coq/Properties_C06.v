(* C06 -- Parameter validation accepts exactly well-formed groups.
   Property theorems: each is closed by a lemma of CheckGroupLemmas.v, CheckGroupCyclic.v or Zbase.v (the refutation by its witness) and
   followed by Print Assumptions; the Examples at the end are closed by evaluation.
   is_prime (mpz_probab_prime_p), H (tmcg_mpz_shash) and jac (mpz_jacobi) are idealised primitives: they are
   universally quantified, the correctness of the primality test is a premise. *)
From Coq Require Import ZArith Znumtheory List Lia.
From LT Require Import Zbase CodecModel CheckGroupModel CheckGroupLemmas CheckGroupCyclic.
Import ListNotations.
Local Open Scope Z_scope.

Definition prime_test_correct (is_prime : Z -> bool) : Prop :=
  forall n, 0 <= n -> (is_prime n = true <-> prime n).

(* BarnettSmartVTMF_dlog::CheckGroup returns true exactly for the well-formed sets: sizes, p = qk+1, p and q prime,
   q does not divide k, 1 < g < p-1, g^q = 1, and (if demanded) g is the verifiably derived generator *)
Theorem C06_check_group_iff : forall is_prime H, prime_test_correct is_prime ->
  forall fuel F G canonical p q g k, 0 < q ->
  (check_group_vtmf is_prime H fuel F G canonical p q g k = Accept <-> wf_group H fuel F G canonical p q g k).
Proof. exact check_group_vtmf_textbook. Qed.
Print Assumptions C06_check_group_iff.

(* the same on all integers, incl. q <= 0 (the order test then reads "mpz_powm g q p = 1") *)
Theorem C06_check_group_iff_all_integers : forall is_prime H, prime_test_correct is_prime ->
  forall fuel F G canonical p q g k,
  (check_group_vtmf is_prime H fuel F G canonical p q g k = Accept <-> wf_vtmf H fuel F G canonical p q g k).
Proof. exact check_group_vtmf_iff. Qed.
Print Assumptions C06_check_group_iff_all_integers.

Theorem C06_check_group_no_crash : forall is_prime H, prime_test_correct is_prime ->
  forall fuel F G canonical p q g k, 0 < q -> 0 < k ->
  check_group_vtmf is_prime H fuel F G canonical p q g k <> Crash.
Proof. exact check_group_vtmf_no_crash. Qed.
Print Assumptions C06_check_group_no_crash.

(* "not of order q" is refused: an accepted generator has order exactly q *)
Theorem C06_generator_order_exact : forall H fuel F G canonical p q g k, wf_group H fuel F G canonical p q g k ->
  forall e, 0 <= e -> (g ^ e mod p = 1 <-> (q | e)).
Proof. exact gen_order_exact. Qed.
Print Assumptions C06_generator_order_exact.

(* CheckElement accepts exactly the q-torsion of 1..p-1 *)
Theorem C06_check_element_iff : forall p q a, 0 <= q ->
  (check_element p q a = Accept <-> 0 < a < p /\ a ^ q mod p = 1).
Proof. exact check_element_iff. Qed.
Print Assumptions C06_check_element_iff.

Theorem C06_check_element_iff_all_integers : forall p q a,
  check_element p q a = Accept <-> 0 < a < p /\ mpz_powm a q p = Some 1.
Proof. exact check_element_iff_raw. Qed.
Print Assumptions C06_check_element_iff_all_integers.

(* ... which contains every power of the accepted generator and is closed under the group operation
   (the converse inclusion is C06_qtorsion_is_cyclic below) *)
Theorem C06_subgroup_accepted_partial : forall H fuel F G canonical p q g k, wf_group H fuel F G canonical p q g k ->
  forall x, 0 <= x -> check_element p q (powm g x p) = Accept.
Proof. exact subgroup_accepted. Qed.
Print Assumptions C06_subgroup_accepted_partial.

Theorem C06_element_mul_closed : forall p q a b, prime p -> 0 <= q ->
  check_element p q a = Accept -> check_element p q b = Accept -> check_element p q (a * b mod p) = Accept.
Proof. exact element_mul_closed. Qed.
Print Assumptions C06_element_mul_closed.

(* polynomial root bound modulo a prime, instance X^n - 1: at most n solutions of a^n = 1 in 0..p-1 *)
Theorem C06_unity_roots_bound : forall p n, prime p -> 0 < n -> forall l,
  NoDup l -> (forall a, In a l -> 0 <= a < p /\ a ^ n mod p = 1) -> Z.of_nat (length l) <= n.
Proof. exact unity_roots_bound. Qed.
Print Assumptions C06_unity_roots_bound.

(* the general statement: degree-n polynomial, leading coefficient not divisible by p, at most n roots *)
Theorem C06_root_bound : forall p, prime p -> forall n f l,
  length f = S n -> last f 0 mod p <> 0 ->
  NoDup l -> (forall a, In a l -> 0 <= a < p /\ peval f a mod p = 0) -> (length l <= n)%nat.
Proof. exact root_bound. Qed.
Print Assumptions C06_root_bound.

Theorem C06_powers_distinct : forall p q g, prime q -> 1 < g < p - 1 -> g ^ q mod p = 1 ->
  forall x y, 0 <= x < q -> 0 <= y < q -> powm g x p = powm g y p -> x = y.
Proof. exact powers_distinct. Qed.
Print Assumptions C06_powers_distinct.

(* CheckElement accepts exactly {g^x | 0 <= x < q} *)
Theorem C06_qtorsion_is_cyclic : forall p q g, prime p -> prime q -> 1 < g < p - 1 -> g ^ q mod p = 1 ->
  forall a, check_element p q a = Accept <-> exists x, 0 <= x < q /\ a = powm g x p.
Proof. exact qtorsion_is_cyclic. Qed.
Print Assumptions C06_qtorsion_is_cyclic.

(* ... hence exactly q integers are accepted *)
Theorem C06_accepted_count : forall p q g, prime p -> prime q -> 1 < g < p - 1 -> g ^ q mod p = 1 ->
  forall l, NoDup l -> (forall a, In a l <-> check_element p q a = Accept) -> Z.of_nat (length l) = q.
Proof. exact accepted_count. Qed.
Print Assumptions C06_accepted_count.

(* the classes with several generators (k stored: PedersenCommitmentScheme and GrothSKC/VSSHE through it, h :: g_1..g_n, and the
   trapdoor commitment; k derived: VRHE, PedersenVSS, the DKG/RVSS/ZVSS/DSS/NTS classes, JL-RVSS/EDCF, EOTP) *)
Theorem C06_check_group_gens_iff : forall is_prime H, prime_test_correct is_prime ->
  forall fuel F G sign_test derive_k canonical p q k0 h gs,
  (check_group_gens is_prime H fuel F G sign_test derive_k canonical p q k0 h gs = Accept
   <-> wf_gens H fuel F G sign_test derive_k canonical p q k0 h gs).
Proof. exact check_group_gens_iff. Qed.
Print Assumptions C06_check_group_gens_iff.

(* sign_test || derive_k: the check starts with `if (mpz_sgn(q) <= 0) throw false` (fixes 7223137 and 07cfbe5: every class of this
   family does): acceptance then gives the textbook facts, and GMP's division by zero is out of reach *)
Theorem C06_check_group_gens_order : forall is_prime H, prime_test_correct is_prime ->
  forall fuel F G sign_test derive_k canonical p q k0 h gs, (sign_test || derive_k)%bool = true ->
  check_group_gens is_prime H fuel F G sign_test derive_k canonical p q k0 h gs = Accept ->
  0 < q /\ prime p /\ prime q /\ Forall (fun x => x ^ q mod p = 1) (h :: gs).
Proof. exact check_group_gens_order. Qed.
Print Assumptions C06_check_group_gens_order.

Theorem C06_check_group_gens_no_crash : forall is_prime H, prime_test_correct is_prime ->
  forall fuel F G sign_test derive_k p q k0 h gs, (sign_test || derive_k)%bool = true ->
  check_group_gens is_prime H fuel F G sign_test derive_k false p q k0 h gs <> Crash.
Proof. exact check_group_gens_no_crash. Qed.
Print Assumptions C06_check_group_gens_no_crash.

(* quadratic-residue group: p = 2q+1, p = 7 mod 8, Jacobi symbol, shifted generator 2^(2^(|p|-E)) *)
Theorem C06_check_group_qr_iff : forall is_prime, prime_test_correct is_prime ->
  forall jac F G E canonical p q g,
  (check_group_qr is_prime jac F G E canonical p q g = Accept <-> wf_qr jac F G E canonical p q g).
Proof. exact check_group_qr_iff. Qed.
Print Assumptions C06_check_group_qr_iff.

Theorem C06_qr_generator_order : forall jac F G E canonical p q g,
  (forall a m, prime m -> 2 < m -> 0 < a < m -> (jac a m = 1 <-> a ^ ((m - 1) / 2) mod m = 1)) ->
  wf_qr jac F G E canonical p q g -> g ^ q mod p = 1.
Proof. exact qr_generator_order. Qed.
Print Assumptions C06_qr_generator_order.

Theorem C06_check_element_qr_iff : forall jac p a,
  check_element_qr jac p a = true <-> 0 < a < p /\ jac a p = 1.
Proof. exact check_element_qr_iff. Qed.
Print Assumptions C06_check_element_qr_iff.

(* the model of mpz_invert used by mpz_powm for negative exponents is a correct and complete inverse *)
Theorem C06_invm_spec : forall a p, 0 < p ->
  match invm a p with
  | Some i => 0 <= i < p /\ (a * i) mod p = 1 mod p
  | None => Z.gcd a p <> 1
  end.
Proof. exact invm_spec. Qed.
Print Assumptions C06_invm_spec.

(* observation outside the catalogue of the property: BarnettSmartVTMF_dlog::CheckGroup has no test of the sign of q:
   (p, -q, g, -k) passes whenever (p, q, g, k) does.  Witness p = 23, q = -11, g = 2, k = -2.  The several-generator family
   starts with the sign test and refuses it (C06_check_group_gens_order). *)
Theorem C06_positive_order_refuted :
  exists p q g k, q < 0 /\ check_group_vtmf trial_prime (fun _ => 0) 4 5 4 false p q g k = Accept.
Proof. exists 23, (-11), 2, (-2). split; [lia|reflexivity]. Qed.
Print Assumptions C06_positive_order_refuted.

(* PedersenCommitmentScheme (stored k, sign test of fix 07cfbe5): the set is refused *)
Example C06_negative_order_com_now_refused :
  check_group_gens trial_prime (fun _ => 0) 4 5 4 true false false 23 (-11) (-2) 2 [3; 4] = Reject.
Proof. reflexivity. Qed.

Example C06_nonvacuous_group : wf_group (fun _ => 0) 4 5 4 false 23 11 2 2.
Proof. apply (check_group_vtmf_textbook trial_prime _ (fun n _ => trial_prime_iff n)); [lia|reflexivity]. Qed.
(* a canonical generator: with the constant hash 5, the derived generator of (23, 11, 2) is 5^2 = 2 *)
Example C06_nonvacuous_canonical : check_group_vtmf trial_prime (fun _ => 5) 4 5 4 true 23 11 2 2 = Accept.
Proof. reflexivity. Qed.
Example C06_nonvacuous_gens : check_group_gens trial_prime (fun _ => 0) 4 5 4 true true false 23 11 0 2 [3; 4] = Accept.
Proof. reflexivity. Qed.
Example C06_negative_order_now_refused : check_group_gens trial_prime (fun _ => 0) 4 5 4 true true false 23 (-11) 0 2 [3; 4] = Reject.
Proof. reflexivity. Qed.
Example C06_nonvacuous_prime_test : forall n, 0 <= n < 50 -> trial_prime n = true -> prime n.
Proof. intros n _. apply trial_prime_iff. Qed.
