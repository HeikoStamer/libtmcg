(* SkcProveLemmas (C03): completeness of Groth's shuffle-of-known-content argument (non-interactive form), both settings of the
   verifier's `optimizations` flag: Pedersen commitments are homomorphic, the verifier's recursion satisfies
   F_i = e a_i + Delta_i, and prod (m_i - x) does not depend on the order. *)
From Coq Require Import ZArith Znumtheory Lia List Bool ZifyBool Permutation.
From LT Require Import Zbase gen_Consts SigmaPrim SigmaArith KeyRingModel KeyRingLemmas PedersenModel PedersenLemmas SkcProveModel.
Import ListNotations.
Local Open Scope Z_scope.

Definition lin (k : Z) (q : Z) (ab : Z * Z) : Z := (k * fst ab + snd ab) mod q.

Section Algebra.
  Variables p q : Z.
  Hypothesis Hp : 1 < p.
  Hypothesis Hq : 0 < q.

  Definition nonneg (l : list Z) : Prop := Forall (fun v => 0 <= v) l.

  (* (prod g_i^{a_i})^k * prod g_i^{b_i} = prod g_i^{(k a_i + b_i) mod q} *)
  Lemma gen_prod_lin k : 0 <= k -> forall gs la lb, Forall (fun gi => powm gi q p = 1) gs -> length la = length lb -> nonneg la -> nonneg lb ->
    (powm (gen_prod gs la p) k p * gen_prod gs lb p) mod p = gen_prod gs (map (lin k q) (combine la lb)) p mod p.
  Proof.
    intros Hk. induction gs as [|gi gs IH]; intros la lb Og L Na Nb;
      [|destruct la as [|a la], lb as [|b lb]; try discriminate L]; cbn [gen_prod combine map];
      try (rewrite powm_1_l, Z.mul_1_r by lia; apply Zmod_mod).
    inversion Og as [|? ? Hgi Og']; inversion Na as [|? ? Ha Na']; inversion Nb as [|? ? Hb Nb']; subst. injection L as L.
    specialize (IH la lb Og' L Na' Nb'). unfold lin at 1. cbn [fst snd].
    rewrite powm_mul_base, <- powm_mul, (powm_mod_order p q gi Hp Hq Hgi), powm_add, (Z.mul_comm k a) by nia.
    rewrite <- (Zmult_mod_idemp_r (gen_prod gs (map _ _) p)), <- IH. mod_ring p.
  Qed.
End Algebra.

Lemma map_nth_seq (l : list Z) : map (fun i => nth i l 0) (seq 0 (length l)) = l.
Proof.
  induction l as [|v l IH]; [reflexivity|]. cbn [length seq map nth]. f_equal.
  rewrite <- seq_shift, map_map. exact IH.
Qed.

Lemma permuted_spec pi m mus : permuted pi m = Some mus -> mus = map (fun j => nth j m 0) pi.
Proof.
  revert mus. induction pi as [|j pi IH]; intros mus E; cbn [permuted] in E.
  - now injection E as <-.
  - destruct (nth_error m j) as [v|] eqn:Ev; [|discriminate]. destruct (permuted pi m) as [t|]; [|discriminate].
    injection E as <-. cbn [map]. f_equal; [|now apply IH]. symmetry. now apply nth_error_nth.
Qed.

Lemma permuted_perm pi m mus : permuted pi m = Some mus -> Permutation pi (seq 0 (length m)) -> Permutation mus m.
Proof.
  intros E P. rewrite (permuted_spec _ _ _ E).
  eapply Permutation_trans; [apply Permutation_map; exact P|]. now rewrite map_nth_seq.
Qed.

Lemma permuted_total pi m : Forall (fun j => (j < length m)%nat) pi -> exists mus, permuted pi m = Some mus.
Proof.
  induction 1 as [|j pi Hj _ [t Et]]; [now exists []|]. cbn [permuted]. rewrite Et.
  destruct (nth_error m j) eqn:Ev; [eauto|]. apply nth_error_None in Ev. lia.
Qed.

Lemma combine_map_seq {A B} (f : nat -> A) (g : nat -> B) idx : combine (map f idx) (map g idx) = map (fun i => (f i, g i)) idx.
Proof. induction idx as [|i idx IH]; [reflexivity|]. cbn. now rewrite IH. Qed.

Section Com.
  Variable H : list Z -> Z.
  Variable C : pcom.
  Variable l : Z.
  Hypothesis WF : wf_pcom C.
  Hypothesis Hl : 0 <= l.
  Let p := pc_p C.
  Let q := pc_q C.
  Let Hp : 1 < p := wp_p _ WF.
  Let Hq : 0 < q := wp_q _ WF.

  (* Pedersen commitments are homomorphic: com(a; r)^k * com(b; s) = com(k a + b; k r + s) *)
  Lemma commitment_lin k r s la lb : 0 <= k -> 0 <= r -> 0 <= s -> length la = length lb -> nonneg la -> nonneg lb ->
    (powm (commitment C r la) k p * commitment C s lb) mod p =
    commitment C ((k * r + s) mod q) (map (lin k q) (combine la lb)).
  Proof.
    intros Hk Hr Hs L Na Nb. rewrite !commitment_gen_prod. fold p. rewrite powm_base_mod, Zmult_mod_idemp_r by lia.
    apply (gen_prod_lin p q Hp Hq k Hk (pc_h C :: pc_g C) (r :: la) (s :: lb));
      [constructor; [exact (wp_h _ WF)|exact (wp_g _ WF)]|cbn; lia|now constructor..].
  Qed.

  Lemma msgs_nonneg ms : msgs_ok q ms -> nonneg ms.
  Proof. apply Forall_impl. lia. Qed.

  Lemma test_membership_spec c : test_membership C c = true <-> in_group p q c.
  Proof. unfold test_membership, in_group. fold p q. lia. Qed.

  Lemma in_zq_spec v : in_zq C v = true <-> 0 <= v < q.
  Proof. unfold in_zq. fold q. lia. Qed.

  Lemma forallb_in_zq ms : msgs_ok q ms -> forallb (in_zq C) ms = true.
  Proof. intros Hm. apply forallb_forall. intros v I. apply in_zq_spec. exact (proj1 (Forall_forall _ _) Hm v I). Qed.

  Lemma trunc_nonneg v : 0 <= v mod 2 ^ l.
  Proof. apply Z.mod_pos_bound. apply Z.pow_pos_nonneg; lia. Qed.

  (* the verifier alone: it accepts every message whose first three entries are group elements, whose responses are residues
     mod q in vectors of the right length, that opens c^e c_d and c_a^e c_Delta to the responses and satisfies the product
     equation -- with and without `optimizations` *)
  Lemma skc_verify_accept c m cd cD ca f z fD zD opt alpha ei :
    let x := skc_x H C l m in
    let e := skc_e H C l m x cd cD ca in
    (2 <= length m <= length (pc_g C))%nat -> 0 <= alpha ->
    in_group p q cd /\ in_group p q ca /\ in_group p q cD ->
    (0 <= z < q /\ msgs_ok q f /\ length f = length m) /\ (0 <= zD < q /\ msgs_ok q fD /\ length (fD ++ [0]) = length m) ->
    (powm c e p * cd) mod p = commitment C z f /\ (powm ca e p * cD) mod p = commitment C zD (fD ++ [0]) ->
    invm e q = Some ei /\ F_loop C ((e * x) mod q) ei f fD true 1 = (prod_mx C m x 1 * e) mod q ->
    skc_verify H C l c m true (mkSkc cd cD ca f z fD zD) opt alpha = Accept.
  Proof.
    intros x e [Hn Hg] Ha (Mcd & Mca & McD) [(Rz & Mf & Lf) (RzD & MfD & LfD)] [K1 K2] [Ei Pr].
    assert (MfD0 : msgs_ok q (fD ++ [0])) by (apply Forall_app; split; [assumption|constructor; [lia|constructor]]).
    unfold skc_verify. cbn [k_cd k_cDelta k_ca k_f k_z k_fD k_zD]. fold p q x e.
    rewrite (proj2 (Nat.ltb_ge _ _) Hg), (proj2 (Nat.ltb_ge _ _) Hn), !(proj2 (test_membership_spec _)),
      !(proj2 (in_zq_spec _)), !forallb_in_zq, !mpz_powm_nonneg, K1, K2, Ei, Pr, Z.eqb_refl
      by (assumption || apply trunc_nonneg).
    cbn [negb andb]. destruct opt.
    - (* one opening of the combination with weight alpha *)
      change (fun ff : Z * Z => (alpha * fst ff + snd ff) mod q) with (lin alpha q).
      rewrite commitment_lin by (assumption || lia || now apply msgs_nonneg). rewrite verify_commit; [reflexivity|assumption|..].
      + apply Z.mod_pos_bound, Hq.
      + apply Forall_forall. intros v I. apply in_map_iff in I. destruct I as [ab [<- _]]. apply Z.mod_pos_bound, Hq.
      + rewrite map_length, combine_length. lia.
    - now rewrite !verify_commit by (assumption || lia).
  Qed.

  (* the honest prover's vectors are given by index functions with values in [0,q) *)
  Definition zq_fun (f : nat -> Z) : Prop := forall i, 0 <= f i < q.

  Lemma coin_d_range raws : zq_fun (coin_d C raws).
  Proof. intros i. apply srandomm_range, Hq. Qed.

  Lemma lej1_range d Delta n : zq_fun (lej1 C d Delta n).
  Proof. intros i. unfold lej1. destruct (S i <? n)%nat; [apply Z.mod_pos_bound, Hq|fold q; lia]. Qed.

  Lemma lej2_range mu d Delta x n : zq_fun (lej2 C mu d Delta x n).
  Proof. intros i. unfold lej2. destruct (S i <? n)%nat; [apply Z.mod_pos_bound, Hq|fold q; lia]. Qed.

  Lemma at_range ms : msgs_ok q ms -> zq_fun (at_ ms).
  Proof.
    intros Hm i. unfold at_. destruct (nth_in_or_default i ms 0) as [I| ->]; [|fold q; lia].
    exact (proj1 (Forall_forall _ _) Hm _ I).
  Qed.

  Lemma zq_fun_msgs f idx : zq_fun f -> msgs_ok q (map f idx).
  Proof. intros Hf. apply Forall_map, Forall_forall. intros i _. apply Hf. Qed.

  Lemma commit_by_seq r f n : 0 <= r < q -> zq_fun f -> (n <= length (pc_g C))%nat ->
    commit_by C r (map f (seq 0 n)) true = Some (commitment C r (map f (seq 0 n))).
  Proof. intros Hr Hf Hn. apply (commit_by_spec C WF); [assumption|now apply zq_fun_msgs|now rewrite map_length, seq_length]. Qed.

  Lemma commitment_seq_member r f idx : 0 <= r < q -> zq_fun f -> in_group p q (commitment C r (map f idx)).
  Proof. intros Hr Hf. apply (commitment_member C WF); [lia|now apply zq_fun_msgs]. Qed.

  (* the homomorphic property on vectors given by index functions *)
  Lemma commitment_lin_seq k r s fa fb idx : 0 <= k -> 0 <= r < q -> 0 <= s < q -> zq_fun fa -> zq_fun fb ->
    (powm (commitment C r (map fa idx)) k p * commitment C s (map fb idx)) mod p =
    commitment C ((k * r + s) mod q) (map (fun i => (k * fa i + fb i) mod q) idx).
  Proof.
    intros Hk Hr Hs Ha Hb. rewrite commitment_lin, combine_map_seq, map_map;
      (reflexivity || lia || (now rewrite !map_length) || (apply msgs_nonneg; now apply zq_fun_msgs)).
  Qed.
End Com.

Section Rec.
  Variable C : pcom.
  Let q := pc_q C.
  Variables e ei x : Z.
  Hypothesis Hei : (e * ei) mod q = 1.
  Variables mu d Delta : nat -> Z.
  Variable n : nat.
  Hypothesis Hn : (2 <= n)%nat.
  Hypothesis D0 : Delta O = d O.

  Notation a := (a_of C mu x).
  Variable ex : Z.
  Variables ff fd : nat -> Z.
  Hypothesis Eex : ex = (e * x) mod q.
  Hypothesis Eff : forall i, ff i = (e * mu i + d i) mod q.
  Hypothesis Efd : forall i, fd i = (e * lej2 C mu d Delta x n i + lej1 C d Delta n i) mod q.

  (* F_k = e a_k + Delta_k *)
  Lemma F_step j : (S j < n)%nat ->
    ((((ff (S j) - ex) mod q * ((e * a j + Delta j) mod q)) mod q + fd j) mod q * ei) mod q = (e * a (S j) + Delta (S j)) mod q.
  Proof.
    intros Hj. rewrite Efd, Eff, Eex. unfold lej1, lej2. fold q.
    assert (B : (S j <? n)%nat = true) by (apply Nat.ltb_lt; lia). rewrite B.
    set (M := (mu (S j) - x) mod q).
    transitivity ((e * a j * M + Delta (S j)) mod q).
    - (* e times the claim, then ei cancels e *)
      rewrite <- (mod_cancel_l q e ei (e * a j * M + Delta (S j)) Hei). f_equal. f_equal. unfold M. mod_ring q.
    - cbn [a_of]. fold q. fold M. mod_ring q.
  Qed.

  Lemma F_loop_spec : forall r j, (S j + r = n)%nat ->
    F_loop C ex ei (map ff (seq (S j) r)) (map fd (seq j r)) false ((e * a j + Delta j) mod q)
    = (e * a (n - 1) + Delta (n - 1)) mod q.
  Proof.
    induction r as [|r IH]; intros j E; cbn [seq map F_loop].
    - replace (n - 1)%nat with j by lia. reflexivity.
    - fold q. rewrite F_step by lia. apply IH. lia.
  Qed.

  Theorem F_loop_honest : F_loop C ex ei (map ff (seq 0 n)) (map fd (seq 0 (n - 1))) true 1 = (e * a (n - 1) + Delta (n - 1)) mod q.
  Proof.
    assert (E0 : ((ff O - ex) mod q * 1) mod q = (e * a O + Delta O) mod q).
    { rewrite Eff, Eex, D0. cbn [a_of]. fold q. mod_ring q. }
    rewrite <- (F_loop_spec (n - 1) 0), <- E0 by lia. destruct n as [|n']; [lia|].
    now rewrite Nat.sub_succ, Nat.sub_0_r.
  Qed.

  (* both sides of the verifier's last test are products of the shifted messages *)
  Let sh (v : Z) : Z := (v - x) mod q.

  Lemma prod_mx_spec : forall m acc, prod_mx C m x acc mod q = (acc * prodl (map sh m)) mod q.
  Proof.
    induction m as [|mi m IH]; intros acc; cbn [prod_mx map].
    - now rewrite Z.mul_1_r.
    - fold q. rewrite IH, prodl_cons. unfold sh. mod_ring q.
  Qed.

  Lemma a_of_spec i : a i mod q = prodl (map sh (map mu (seq 0 (S i)))) mod q.
  Proof.
    induction i as [|i IH].
    - cbn. fold q. now rewrite Z.mul_1_r.
    - rewrite seq_S, !map_app, prodl_app. cbn [a_of plus map]. fold q. rewrite prodl_cons, Z.mul_1_r, Zmod_mod.
      now rewrite <- Zmult_mod_idemp_l, IH, Zmult_mod_idemp_l.
  Qed.

  (* when Delta_n = 0 and the mu_i are the messages in another order, the recursion ends in e * prod (m_i - x) *)
  Theorem F_loop_product m : Delta (n - 1)%nat = 0 -> Permutation (map mu (seq 0 n)) m ->
    F_loop C ex ei (map ff (seq 0 n)) (map fd (seq 0 (n - 1))) true 1 = (prod_mx C m x 1 * e) mod q.
  Proof.
    intros Dn P. rewrite F_loop_honest, Dn, Z.add_0_r, <- Zmult_mod_idemp_r, a_of_spec.
    replace (S (n - 1)) with n by lia. rewrite (prodl_perm _ _ (Permutation_map sh P)).
    now rewrite <- (Zmult_mod_idemp_l (prod_mx C m x 1)), prod_mx_spec, Z.mul_1_l, Zmult_mod_idemp_l, Zmult_mod_idemp_r, Z.mul_comm.
  Qed.
End Rec.

Section Main.
  Variable H : list Z -> Z.
  Variable C : pcom.
  Variable l : Z.
  Hypothesis WF : wf_pcom C.
  Hypothesis Hl : 0 <= l.
  Let p := pc_p C.
  Let q := pc_q C.
  Let Hq : 0 < q := wp_q _ WF.

  Theorem skc_complete pi r m raws t mus opt alpha :
    (2 <= length m)%nat -> (length m <= length (pc_g C))%nat -> Permutation pi (seq 0 (length m)) ->
    0 <= r < q -> msgs_ok q m -> 0 <= alpha ->
    permuted pi m = Some mus ->
    skc_prove H C l pi r m raws = Some t ->
    (exists ei, (skc_e H C l m (skc_x H C l m) (k_cd t) (k_cDelta t) (k_ca t) * ei) mod q = 1) ->
    skc_verify H C l (commitment C r mus) m true t opt alpha = Accept.
  Proof.
    intros Hn Hg P Hr Hm Ha Hperm Hprove Hinv.
    assert (Pm : Permutation mus m) by (eapply permuted_perm; eassumption).
    apply Permutation_length in P. rewrite seq_length in P.
    unfold skc_prove in Hprove. fold q in Hprove.
    rewrite P, (proj2 (Nat.ltb_ge _ _) Hg), Nat.eqb_refl, (proj2 (Nat.ltb_ge _ _) Hn), Hperm in Hprove. cbv zeta in Hprove.
    set (n := length m) in *. set (x := skc_x H C l m) in *. set (d := coin_d C raws) in *.
    set (Delta := coin_Delta C raws n) in *. set (mu := at_ mus) in *.
    pose proof (coin_d_range C WF raws : zq_fun C d) as Rd. pose proof (lej1_range C WF d Delta n) as R1.
    pose proof (lej2_range C WF mu d Delta x n) as R2.
    pose proof (at_range C WF mus (Permutation_Forall (Permutation_sym Pm) Hm) : zq_fun C mu) as Rmu.
    assert (Emus : map mu (seq 0 n) = mus) by (unfold n; rewrite <- (Permutation_length Pm); apply map_nth_seq).
    pose proof (fun raw => srandomm_range raw q Hq) as Rc.
    rewrite !(commit_by_seq C WF) in Hprove by (assumption || apply Rc).
    injection Hprove as <-. cbn [k_cd k_cDelta k_ca] in Hinv. destruct Hinv as [ei Hei].
    set (e := skc_e H C l m x _ _ _) in *. assert (He : 0 <= e) by now apply trunc_nonneg.
    (* f_Delta with its last entry, which is zero *)
    set (fDfun := fun i : nat => (e * lej2 C mu d Delta x n i + lej1 C d Delta n i) mod q).
    assert (B : (S (n - 1) <? n)%nat = false) by (apply Nat.ltb_ge; lia).
    assert (Elast : map fDfun (seq 0 (n - 1)) ++ [0] = map fDfun (seq 0 n)).
    { replace (seq 0 n) with (seq 0 (S (n - 1))) by (f_equal; lia). rewrite seq_S, map_app. cbn [map plus]. do 2 f_equal.
      unfold fDfun, lej1, lej2. now rewrite B, Z.mul_0_r. }
    apply (skc_verify_accept H C l WF Hl) with (ei := ei mod q); fold p q n x e; fold fDfun; rewrite ?Elast; [lia|assumption|..].
    - (* c_d, c_a, c_Delta are commitments *)
      repeat split; apply (commitment_seq_member C WF); assumption || apply Rc.
    - (* the responses are residues, in vectors of length n *)
      rewrite !map_length, seq_length.
      repeat split; try apply Z.mod_pos_bound, Hq; apply (zq_fun_msgs C); intros i; apply Z.mod_pos_bound, Hq.
    - (* the two openings: commitments are homomorphic *)
      split; [rewrite <- Emus at 1|]; apply (commitment_lin_seq C WF); assumption || apply Rc.
    - split.
      + (* the inverse the verifier computes is ei mod q *)
        apply invm_eq; [|apply Z.mod_pos_bound, Hq|now rewrite Zmult_mod_idemp_r].
        destruct (Z.eq_dec q 1) as [E1|]; [|lia]. rewrite E1, Z.mod_1_r in Hei. discriminate.
      + (* the product: Delta_n = 0 and mus is m in another order *)
        apply (F_loop_product C e (ei mod q) x) with (mu := mu) (d := d) (Delta := Delta); rewrite ?Emus; try easy.
        * now rewrite Zmult_mod_idemp_r.
        * unfold Delta, coin_Delta. rewrite B. now destruct (Nat.eqb_spec (n - 1) 0); [lia|].
  Qed.

  (* the honest prover never fails: the premise "skc_prove ... = Some t" of skc_complete is satisfiable for every honest input *)
  Theorem skc_prove_total pi r m raws :
    (2 <= length m)%nat -> (length m <= length (pc_g C))%nat -> Permutation pi (seq 0 (length m)) ->
    exists t mus, permuted pi m = Some mus /\ skc_prove H C l pi r m raws = Some t.
  Proof.
    intros Hn Hg P. destruct (permuted_total pi m) as [mus Hperm].
    { apply Forall_forall. intros j I. apply (Permutation_in _ P), in_seq in I. lia. }
    unfold skc_prove. fold q. apply Permutation_length in P. rewrite seq_length in P.
    rewrite P, (proj2 (Nat.ltb_ge _ _) Hg), Nat.eqb_refl, (proj2 (Nat.ltb_ge _ _) Hn), Hperm. cbv zeta.
    rewrite !(commit_by_seq C WF) by
      (assumption || (apply srandomm_range, Hq) || apply (coin_d_range C WF) || apply (lej1_range C WF) || apply (lej2_range C WF)).
    eexists. exists mus. now split.
  Qed.
End Main.
