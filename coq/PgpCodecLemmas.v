(* C19 -- proofs about the OpenPGP codec model (PgpCodecModel.v) *)
From Coq Require Import ZArith NArith List Bool Lia ZifyBool ZifyN.
From LT Require Import ListFacts gen_Consts gen_Tables PgpCodecModel.
Import ListNotations.
Local Open Scope N_scope.


Lemma substr_app_exact (h : nat) (pre body rest : list N) :
  length pre = h -> substr (pre ++ body ++ rest) h (length body) = body.
Proof. intro H. unfold substr. now rewrite (skipn_app_exact h), firstn_app_exact. Qed.


(* equal length on one side decides where two concatenations split *)
Lemma app_inj_len_l {A} (a1 a2 b1 b2 : list A) :
  length a1 = length a2 -> a1 ++ b1 = a2 ++ b2 -> a1 = a2 /\ b1 = b2.
Proof.
  revert a2. induction a1 as [|x a1 IH]; intros [|y a2] Hl H; try discriminate.
  - now split.
  - cbn in H. inversion H; subst. destruct (IH a2) as [-> ->]; auto.
Qed.
Lemma app_inj_len_r {A} (a1 a2 b1 b2 : list A) :
  length b1 = length b2 -> a1 ++ b1 = a2 ++ b2 -> a1 = a2 /\ b1 = b2.
Proof.
  intros Hl H. apply app_inj_len_l; [|assumption].
  apply (f_equal (@length A)) in H. rewrite !app_length in H. lia.
Qed.

Lemma skipn_nth {A} n (l : list A) d : (n < length l)%nat -> skipn n l = nth n l d :: skipn (S n) l.
Proof. revert l. induction n; intros [|c l] H; cbn in *; try lia; [reflexivity|apply IHn; lia]. Qed.

Lemma octets_eqb_eq a b : octets_eqb a b = true <-> a = b.
Proof.
  revert b. induction a as [|x a IH]; intros [|y b]; cbn; split; intro H; try discriminate; try reflexivity.
  - apply andb_true_iff in H as [H1 H2]. apply N.eqb_eq in H1. apply IH in H2. now subst.
  - inversion H; subst. rewrite N.eqb_refl. now apply IH.
Qed.

Lemma len_app a b : len (a ++ b) = len a + len b.
Proof. unfold len. rewrite app_length. apply Nat2N.inj_add. Qed.
Lemma to_nat_len a : N.to_nat (len a) = length a.
Proof. apply Nat2N.id. Qed.
Lemma octets_cons a l : octets (a :: l) <-> a < 256 /\ octets l.
Proof. apply Forall_cons_iff. Qed.

Lemma forall_below (k : nat) (P : N -> bool) :
  forallb P (map N.of_nat (seq 0 k)) = true -> forall v, v < N.of_nat k -> P v = true.
Proof.
  intros H v Hv. rewrite forallb_forall in H. apply H.
  apply in_map_iff. exists (N.to_nat v). split; [apply N2Nat.id|].
  apply in_seq. lia.
Qed.

(* y * d + u with u < d: quotient y, remainder u *)
Lemma div_digit y u d : u < d -> (y * d + u) / d = y.
Proof. intro H. symmetry. apply (N.div_unique _ d y u); lia. Qed.
Lemma mod_digit y u d : u < d -> (y * d + u) mod d = u.
Proof. intro H. symmetry. apply (N.mod_unique _ d y u); lia. Qed.

(* an octet cut above its low bits *)
Lemma octet_split a d q : d * q = 256 -> a < 256 ->
  exists hi lo, hi < q /\ lo < d /\ a / d = hi /\ a mod d = lo /\ a = hi * d + lo.
Proof.
  intros E H. assert (d <> 0) by lia. exists (a / d), (a mod d).
  split; [apply N.div_lt_upper_bound; lia|]. split; [now apply N.mod_lt|]. repeat split.
  rewrite N.mul_comm. now apply N.div_mod.
Qed.

Lemma shiftr8 n : N.shiftr n 8 = n / 256.
Proof. now rewrite N.shiftr_div_pow2. Qed.
Lemma land255 n : N.land n 255 = n mod 256.
Proof. change 255 with (N.ones 8). now rewrite N.land_ones. Qed.

Lemma be_bytes_length k n : length (be_bytes k n) = k.
Proof. revert n. induction k; intro n; cbn [be_bytes]; [reflexivity|]. rewrite app_length, IHk. apply Nat.add_1_r. Qed.

Lemma be_bytes_octets k n : octets (be_bytes k n).
Proof.
  revert n. induction k; intro n; cbn [be_bytes]; [constructor|].
  apply Forall_app. split; [apply IHk|]. apply octets_cons. rewrite land255. split; [now apply N.mod_lt|constructor].
Qed.

Lemma be_value_snoc l x : be_value (l ++ [x]) = be_value l * 256 + x.
Proof. unfold be_value. rewrite fold_left_app. cbn [fold_left]. now rewrite N.shiftl_mul_pow2. Qed.

Lemma be_value_bytes k n : be_value (be_bytes k n) = n mod 256 ^ N.of_nat k.
Proof.
  revert n. induction k as [|k IH]; intro n.
  - cbn. now rewrite N.mod_1_r.
  - cbn [be_bytes]. rewrite be_value_snoc, IH, shiftr8, land255.
    rewrite Nat2N.inj_succ, N.pow_succ_r', N.mod_mul_r by (try apply N.pow_nonzero; discriminate).
    ring.
Qed.

Lemma be_bytes_inj k a b : a < 256 ^ N.of_nat k -> b < 256 ^ N.of_nat k -> be_bytes k a = be_bytes k b -> a = b.
Proof. intros Ha Hb H. apply (f_equal be_value) in H. now rewrite !be_value_bytes, !N.mod_small in H. Qed.

(* the fixed-width encoders are be_bytes *)
Lemma be2_bytes v : be2 v = be_bytes 2 v.
Proof. unfold be2. cbn [be_bytes app]. now rewrite !shiftr8, !land255. Qed.
Lemma be3_bytes v : be3 v = be_bytes 3 v.
Proof. unfold be3. cbn [be_bytes app]. now rewrite !shiftr8, !land255, !N.div_div. Qed.
Lemma be4_bytes v : be4 v = be_bytes 4 v.
Proof. unfold be4. cbn [be_bytes app]. now rewrite !shiftr8, !land255, !N.div_div. Qed.
Lemma be_bytes_app j k n : be_bytes (j + k) n = be_bytes j (n / 256 ^ N.of_nat k) ++ be_bytes k n.
Proof.
  revert n. induction k as [|k IH]; intro n.
  - now rewrite Nat.add_0_r, N.div_1_r, app_nil_r.
  - rewrite Nat.add_succ_r. cbn [be_bytes].
    rewrite IH, shiftr8, N.div_div, <- N.pow_succ_r', <- Nat2N.inj_succ, app_assoc; try reflexivity; try discriminate.
    apply N.pow_nonzero. discriminate.
Qed.
Lemma be8_bytes v : be8 v = be_bytes 8 v.
Proof. unfold be8. rewrite !be4_bytes. symmetry. apply (be_bytes_app 4 4). Qed.

Lemma be_value2 a b : be_value [a; b] = a * 256 + b.
Proof. unfold be_value. cbn [fold_left]. rewrite !N.shiftl_mul_pow2. change (2 ^ 8) with 256. ring. Qed.
Lemma be_value4 a b c d : be_value [a; b; c; d] = a * 16777216 + b * 65536 + c * 256 + d.
Proof. unfold be_value. cbn [fold_left]. rewrite !N.shiftl_mul_pow2. change (2 ^ 8) with 256. ring. Qed.

Lemma be_value_be4 v : v < 4294967296 -> be_value (be4 v) = v.
Proof. intro H. rewrite be4_bytes, be_value_bytes. now apply N.mod_small. Qed.

(* what a decoder sees of a two- or four-octet field: the octets, and the number they spell *)
Lemma be2_digits v : v < 65536 -> exists a b, be2 v = [a; b] /\ a < 256 /\ b < 256 /\ a * 256 + b = v.
Proof.
  intro H. eexists _, _. split; [reflexivity|]. split; [now apply N.mod_lt|]. split; [now apply N.mod_lt|].
  rewrite <- be_value2. fold (be2 v). rewrite be2_bytes, be_value_bytes. now apply N.mod_small.
Qed.
Lemma be4_digits v : v < 4294967296 -> exists a b c d, be4 v = [a; b; c; d] /\
  a * 16777216 + b * 65536 + c * 256 + d = v.
Proof.
  intro H. eexists _, _, _, _. split; [reflexivity|]. rewrite <- be_value4. now apply be_value_be4.
Qed.

(* the alphabet of RFC 4880 6.3 is the table compiled into the library (regenerated from the header) *)
Lemma r64_alphabet_is_source : map r64_char (map N.of_nat (seq 0 64)) = src_tRadix64.
Proof. vm_compute. reflexivity. Qed.

Lemma r64_reverse_is_source :
  map (fun c => Z.of_N (r64_lookup c)) (map N.of_nat (seq 0 256)) = src_fRadix64.
Proof. vm_compute. reflexivity. Qed.

Lemma r64_val_char v : v < 64 -> r64_val (r64_char v) = Some v.
Proof.
  intros H.
  pose proof (forall_below 64 (fun v => match r64_val (r64_char v) with Some w => w =? v | None => false end)) as F.
  specialize (F eq_refl v H). cbv beta in F.
  destruct (r64_val (r64_char v)); [|discriminate]. apply N.eqb_eq in F. now subst.
Qed.

Lemma r64_keep_char v : v < 64 -> r64_keep (r64_char v) = true.
Proof. intros H. unfold r64_keep. now rewrite r64_val_char. Qed.
Lemma r64_lookup_char v : v < 64 -> r64_lookup (r64_char v) = v.
Proof. intros H. unfold r64_lookup. now rewrite r64_val_char. Qed.

Lemma r64_char_range v : v < 64 -> 43 <= r64_char v <= 122.
Proof.
  intros H.
  pose proof (forall_below 64 (fun v => (43 <=? r64_char v) && (r64_char v <=? 122)) eq_refl v H) as F.
  cbv beta in F. lia.
Qed.

(* induction over an octet string, three octets at a time *)
Lemma octets_ind3 (P : list N -> Prop) :
  P [] -> (forall a, a < 256 -> P [a]) -> (forall a b, a < 256 -> b < 256 -> P [a; b]) ->
  (forall a b c r, a < 256 -> b < 256 -> c < 256 -> octets r -> P r -> P (a :: b :: c :: r)) ->
  forall l, octets l -> P l.
Proof.
  intros H0 H1 H2 H3.
  assert (H : forall l, octets l ->
            P l /\ (forall a, a < 256 -> P (a :: l)) /\ (forall a b, a < 256 -> b < 256 -> P (a :: b :: l))).
  { induction 1 as [|x l Hx Hl [IH0 [IH1 IH2]]]; repeat split; auto. }
  intros l Hl. now apply H.
Qed.

(* four sextets, the last one or two possibly missing, give back the octets they were cut from *)
Lemma r64_quad_join x1 x0 y1 y0 z1 z0 : x1 < 64 -> x0 < 4 -> y1 < 16 -> y0 < 16 -> z1 < 4 -> z0 < 64 ->
  r64_quad x1 (x0 * 16) 255 255 = [x1 * 4 + x0] /\
  r64_quad x1 (x0 * 16 + y1) (y0 * 4) 255 = [x1 * 4 + x0; y1 * 16 + y0] /\
  r64_quad x1 (x0 * 16 + y1) (y0 * 4 + z1) z0 = [x1 * 4 + x0; y1 * 16 + y0; z1 * 64 + z0].
Proof.
  intros. unfold r64_quad.
  replace (x0 * 16 =? 255) with false by lia. replace (x0 * 16 + y1 =? 255) with false by lia.
  replace (y0 * 4 =? 255) with false by lia. replace (y0 * 4 + z1 =? 255) with false by lia.
  replace (z0 =? 255) with false by lia. change (255 =? 255) with true. cbv iota.
  now rewrite !N.div_mul, !div_digit, !mod_digit, !N.mod_small by lia.
Qed.

Lemma r64_chars_decode l : octets l -> r64_quads (map r64_lookup (filter r64_keep (r64_chars l))) = l.
Proof.
  induction 1 as [|a Ha|a b Ha Hb|a b c r Ha Hb Hc Hr IH] using octets_ind3; cbn [r64_chars filter]; [reflexivity|..];
    destruct (octet_split a 4 64 eq_refl Ha) as (x1 & x0 & ? & ? & -> & -> & ->).
  - rewrite !r64_keep_char by lia. cbn [map]. rewrite !r64_lookup_char by lia.
    now apply (r64_quad_join x1 x0 0 0 0 0).
  - destruct (octet_split b 16 16 eq_refl Hb) as (y1 & y0 & ? & ? & -> & -> & ->).
    rewrite !r64_keep_char by lia. cbn [map]. rewrite !r64_lookup_char by lia.
    now apply (r64_quad_join x1 x0 y1 y0 0 0).
  - destruct (octet_split b 16 16 eq_refl Hb) as (y1 & y0 & ? & ? & -> & -> & ->).
    destruct (octet_split c 64 4 eq_refl Hc) as (z1 & z0 & ? & ? & -> & -> & ->).
    rewrite !r64_keep_char by lia. cbn [map]. rewrite !r64_lookup_char by lia. cbn [r64_quads].
    rewrite IH. now destruct (r64_quad_join x1 x0 y1 y0 z1 z0) as (_ & _ & ->).
Qed.

Lemma filter_wrap_lines fuel mc l : filter r64_keep (wrap_lines fuel mc l) = filter r64_keep l.
Proof.
  revert l. induction fuel as [|f IH]; intro l; cbn [wrap_lines]; [reflexivity|].
  destruct (length l <=? mc)%nat; [reflexivity|].
  rewrite filter_app. cbn [filter]. change (r64_keep CR) with false. change (r64_keep LF) with false. cbv iota.
  now rewrite IH, <- filter_app, firstn_skipn.
Qed.

(* every octet string survives encoding and decoding, with and without line breaks *)
Theorem radix64_roundtrip : forall lb l, octets l -> radix64_decode (radix64_encode lb l) = l.
Proof.
  intros lb l H. unfold radix64_decode, radix64_encode.
  destruct lb; [destruct (radix64_mc =? 0)%nat|]; rewrite ?filter_wrap_lines; now apply r64_chars_decode.
Qed.

Lemma radix64_mc_64 : radix64_mc = 64%nat. Proof. vm_compute. reflexivity. Qed.

(* the configured line length is a multiple of four (so a pad never starts a line and the running-count
   formulation of the library coincides with wrap_lines) and within the 76 characters RFC 4880 6.3 allows *)
Lemma radix64_mc_bounds : (radix64_mc mod 4 = 0 /\ 0 < radix64_mc <= 76)%nat.
Proof. rewrite radix64_mc_64. repeat split; lia. Qed.

Lemma pktlen_encode_length n :
  length (pktlen_encode n) = if n <? 192 then 1%nat else if n <? 8384 then 2%nat else 5%nat.
Proof. unfold pktlen_encode. destruct (n <? 192); [reflexivity|]. destruct (n <? 8384); reflexivity. Qed.

(* the three forms of a length header, as a decoder meets them *)
Lemma pktlen_encode_cases n : n < 4294967296 ->
  (n < 192 /\ pktlen_encode n = [n]) \/
  (192 <= n < 8384 /\ exists a b, pktlen_encode n = [a; b] /\ 192 <= a < 224 /\ b < 256 /\ (a - 192) * 256 + b + 192 = n) \/
  (8384 <= n /\ exists b c d e, pktlen_encode n = [255; b; c; d; e] /\ b * 16777216 + c * 65536 + d * 256 + e = n).
Proof.
  intro H. unfold pktlen_encode.
  destruct (N.ltb_spec n 192) as [H1|H1]; [left; now rewrite N.mod_small by lia|].
  destruct (N.ltb_spec n 8384) as [H2|H2]; right; [left|right]; (split; [lia|]).
  - destruct (be2_digits (n - 192 + 49152)) as (a & b & E & Ha & Hb & V); [lia|].
    exists a, b. repeat split; try assumption; lia.
  - destruct (be4_digits n H) as (b & c & d & e & E & V). exists b, c, d, e. now rewrite E.
Qed.

Lemma pktlen_decode_five b c d e r lt :
  pktlen_decode (255 :: b :: c :: d :: e :: r) true lt = Some (LenDefinite (u32 (b * 16777216 + c * 65536 + d * 256 + e)) 5).
Proof. reflexivity. Qed.

Theorem pktlen_roundtrip : forall n rest lt, n < 4294967296 ->
  pktlen_decode (pktlen_encode n ++ rest) true lt = Some (LenDefinite n (length (pktlen_encode n))).
Proof.
  intros n rest lt H.
  destruct (pktlen_encode_cases n H) as [[H1 E]|[[H1 (a & b & E & Ha & Hb & V)]|[H1 (b & c & d & e & E & V)]]];
    rewrite E; cbn [app length].
  - cbn [pktlen_decode]. now replace (n <? 192) with true by lia.
  - cbn [pktlen_decode]. replace (a <? 192) with false by lia. replace (a <? 224) with true by lia. now rewrite V.
  - rewrite pktlen_decode_five. unfold u32. now rewrite V, N.mod_small.
Qed.

(* the inputs a new-format length decoder accepts, and what it returns for each *)
Lemma pktlen_decode_new l lt r : pktlen_decode l true lt = Some r -> exists a t, l = a :: t /\
  ((a < 192 /\ r = LenDefinite a 1) \/
   (192 <= a < 224 /\ exists b t', t = b :: t' /\ r = LenDefinite ((a - 192) * 256 + b + 192) 2) \/
   (a = 255 /\ exists n, r = LenDefinite n 5) \/
   (224 <= a /\ a <> 255 /\ r = LenPartial (2 ^ (a mod 32)))).
Proof.
  destruct l as [|a t]; [discriminate|]. intro H. exists a, t. split; [reflexivity|]. cbn [pktlen_decode] in H.
  destruct (N.ltb_spec a 192); [left; split; congruence|]. right.
  destruct (N.ltb_spec a 224); [left; destruct t as [|b t']; [discriminate|]; split; [lia|exists b, t'; split; congruence]|]. right.
  destruct (N.eqb_spec a 255); [left; destruct t as [|b [|c [|d [|f t']]]]; try discriminate; split; [assumption|injection H as <-; now eexists]|].
  right. repeat split; congruence.
Qed.

(* the encoder always uses the shortest of the definite forms the decoder accepts *)
Theorem pktlen_shortest : forall l lt n k, octets l ->
  pktlen_decode l true lt = Some (LenDefinite n k) -> (length (pktlen_encode n) <= k)%nat.
Proof.
  intros l lt n k Ho H. rewrite pktlen_encode_length.
  destruct (pktlen_decode_new _ _ _ H) as (a & t & -> & [[Ha E]|[(Ha & b & t' & -> & E)|[(_ & m & E)|(_ & _ & E)]]]);
    inversion E; subst.
  - replace (_ <? 192) with true by lia. lia.
  - apply octets_cons in Ho as [_ Ho]. apply octets_cons in Ho as [Hb _].
    destruct (N.ltb_spec ((a - 192) * 256 + b + 192) 192); [lia|].
    destruct (N.ltb_spec ((a - 192) * 256 + b + 192) 8384); lia.
  - destruct (_ <? 192); [lia|]. destruct (_ <? 8384); lia.
Qed.

(* a length header never claims more octets than the input has *)
Theorem pktlen_consumed : forall l nf lt n k,
  pktlen_decode l nf lt = Some (LenDefinite n k) -> (1 <= k <= length l)%nat.
Proof.
  intros l nf lt n k H. unfold pktlen_decode in H. destruct l as [|a r]; [discriminate|].
  destruct nf.
  - destruct (a <? 192); [inversion H; cbn; lia|].
    destruct (a <? 224); [destruct r; [discriminate|inversion H; cbn; lia]|].
    destruct (a =? 255); [|discriminate].
    destruct r as [|b [|c [|d [|e r']]]]; try discriminate. inversion H; cbn; lia.
  - destruct (lt =? 0); [inversion H; cbn; lia|].
    destruct (lt =? 1); [destruct r; [discriminate|inversion H; cbn; lia]|].
    destruct (lt =? 2); [destruct r as [|b [|c [|d r']]]; try discriminate; inversion H; cbn; lia|].
    destruct (lt =? 3); discriminate.
Qed.

(* partial body lengths are the powers of two 2^0 .. 2^30 *)
Theorem pktlen_partial_spec : forall l lt n, octets l ->
  pktlen_decode l true lt = Some (LenPartial n) ->
  exists a r, l = a :: r /\ 224 <= a < 255 /\ n = 2 ^ (a - 224) /\ n <= 1073741824.
Proof.
  intros l lt n Ho H.
  destruct (pktlen_decode_new _ _ _ H) as (a & r & -> & [[_ E]|[(_ & b & t' & _ & E)|[(_ & m & E)|(Ha & Hn & E)]]]);
    inversion E; subst.
  apply octets_cons in Ho as [Ho _]. exists a, r.
  replace (a mod 32) with (a - 224) by (apply (N.mod_unique a 32 7); lia).
  repeat split; try lia.
  change 1073741824 with (2 ^ 30). apply N.pow_le_mono_r; lia.
Qed.

Lemma tag_encode_small tag : tag < 64 -> tag_encode tag = [tag + 192].
Proof.
  intro H. unfold tag_encode. f_equal.
  pose proof (forall_below 64 (fun t => N.lor t 192 =? t + 192) eq_refl tag H) as F. cbv beta in F. lia.
Qed.

(* bit 6 of a new-format tag octet *)
Lemma tag_octet_new tag : tag < 64 -> (64 <=? (tag + 192) mod 128) = true.
Proof. intro H. replace ((tag + 192) mod 128) with (tag + 64) by (apply (N.mod_unique _ 128 1); lia). lia. Qed.

(* a packet as the library frames it (new format tag, definite length) is split back into tag and body,
   whatever follows it *)
Theorem packet_extract : forall tag body rest, tag < 64 -> len body < 4294967296 ->
  body_extract (packet tag body ++ rest) = Some (tag, body).
Proof.
  intros tag body rest Ht Hl.
  unfold packet. rewrite tag_encode_small by assumption. cbn [app body_extract].
  replace (tag + 192 <? 128) with false by lia. rewrite tag_octet_new by assumption.
  replace (tag + 192 - 192) with tag by lia.
  rewrite <- app_assoc. cbn [body_chunks].
  rewrite (pktlen_roundtrip (len body) (body ++ rest) 0 Hl).
  set (hd := pktlen_encode (len body)).
  replace (len (hd ++ body ++ rest) <? N.of_nat (length hd) + len body) with false by (rewrite !len_app; unfold len; lia).
  now rewrite to_nat_len, (substr_app_exact _ _ body rest eq_refl).
Qed.

Lemma mpi_size_bound n : n < 256 ^ N.of_nat (mpi_octets n).
Proof.
  unfold mpi_octets. rewrite N2Nat.id.
  change 256 with (2 ^ 8). rewrite <- N.pow_mul_r.
  eapply N.lt_le_trans; [apply N.size_gt|]. apply N.pow_le_mono_r; [discriminate|].
  rewrite (N.div_mod (N.size n + 7) 8) at 1 by discriminate. pose proof (N.mod_lt (N.size n + 7) 8). lia.
Qed.

(* v written on at least as many octets as its MPI takes *)
Lemma be_value_wide k v : (mpi_octets v <= k)%nat -> be_value (be_bytes k v) = v.
Proof.
  intro H. rewrite be_value_bytes. apply N.mod_small. eapply N.lt_le_trans; [apply mpi_size_bound|].
  apply N.pow_le_mono_r; [discriminate|lia].
Qed.

Lemma mpi_encode_length n : length (mpi_encode n) = (2 + mpi_octets n)%nat.
Proof. unfold mpi_encode. rewrite app_length, be_bytes_length. reflexivity. Qed.

(* any integer whose bit length fits the two-octet count (incl. 0) survives, whatever follows *)
Theorem mpi_roundtrip : forall n rest, N.size n < 65536 ->
  mpi_decode (mpi_encode n ++ rest) = Some (n, length (mpi_encode n)).
Proof.
  intros n rest H. rewrite mpi_encode_length. unfold mpi_encode.
  destruct (be2_digits (N.size n) H) as (a & b & -> & _ & _ & V). cbn [app mpi_decode]. rewrite V.
  fold (mpi_octets n). rewrite app_length, be_bytes_length.
  replace (mpi_octets n + length rest <? mpi_octets n)%nat with false by lia.
  rewrite firstn_app_exact by apply be_bytes_length.
  now rewrite be_value_wide by reflexivity.
Qed.

Theorem mpi_consumed : forall l v k, mpi_decode l = Some (v, k) -> (2 <= k <= length l)%nat.
Proof.
  intros l v k H. unfold mpi_decode in H. destruct l as [|a [|b r]]; try discriminate.
  destruct (Nat.ltb_spec (length r) (N.to_nat ((a * 256 + b + 7) / 8))); [discriminate|].
  inversion H; subst. cbn [length]. lia.
Qed.

(* the C expression of RFC 4880 3.7.1.3 on 32-bit unsigned integers *)
Definition s2k_count_c (c : N) : N := N.shiftl (16 + N.land c 15) (N.shiftr c 4 + 6) mod 4294967296.

(* mantissa m and exponent e of the coded count c = e * 16 + m *)
Lemma s2k_count_digits e m : m < 16 -> s2k_count (e * 16 + m) = (16 + m) * 2 ^ (e + 6).
Proof. intro H. unfold s2k_count. now rewrite div_digit, mod_digit. Qed.

(* all 256 coded counts: the arithmetic form equals the C expression, no 32-bit overflow, range 1024..65011712,
   strictly increasing (hence injective) *)
Theorem s2k_count_all : forall c, c < 256 ->
  s2k_count c = s2k_count_c c /\ 1024 <= s2k_count c <= 65011712 /\ (c < 255 -> s2k_count c < s2k_count (c + 1)).
Proof.
  intros c H. destruct (octet_split c 16 16 eq_refl H) as (e & m & He & Hm & _ & _ & ->).
  rewrite s2k_count_digits by assumption.
  assert (Hr : 16 * 2 ^ 6 <= (16 + m) * 2 ^ (e + 6) <= 31 * 2 ^ 21)
    by (split; (apply N.mul_le_mono; [|apply N.pow_le_mono_r]; lia)).
  split; [|split; [exact Hr|intro Hc]].
  - unfold s2k_count_c. change 15 with (N.ones 4).
    rewrite N.land_ones, N.shiftr_div_pow2, N.shiftl_mul_pow2. change (2 ^ 4) with 16.
    rewrite div_digit, mod_digit by assumption. symmetry. apply N.mod_small.
    eapply N.le_lt_trans; [apply Hr|reflexivity].
  - destruct (N.eq_dec m 15) as [->|Hn].
    + (* the mantissa wraps: 31 * 2^k < 16 * 2^(k+1) *)
      replace (e * 16 + 15 + 1) with ((e + 1) * 16 + 0) by lia. rewrite s2k_count_digits by reflexivity.
      replace (e + 1 + 6) with (N.succ (e + 6)) by lia. rewrite N.pow_succ_r'.
      pose proof (N.pow_nonzero 2 (e + 6)). generalize dependent (2 ^ (e + 6)). intros; lia.
    + rewrite <- N.add_assoc, s2k_count_digits by lia.
      apply N.mul_lt_mono_pos_r; [|lia]. apply N.neq_0_lt_0, N.pow_nonzero. discriminate.
Qed.

Lemma s2k_stream_length cnt nzp data : data <> [] ->
  len (s2k_stream cnt nzp data) = N.of_nat nzp + N.max cnt (len data).
Proof.
  intro Hd. unfold s2k_stream.
  assert (Hl : len data <> 0) by (unfold len; destruct data; [congruence|cbn [length]; lia]).
  replace (len data =? 0) with false by lia.
  unfold len in *. rewrite !app_length, repeat_length.
  assert (Hc : forall k, length (concat (repeat data k)) = (k * length data)%nat).
  { induction k; cbn [repeat concat]; [reflexivity|]. rewrite app_length, IHk. lia. }
  rewrite Hc, firstn_length.
  set (t := N.max cnt (N.of_nat (length data))) in *.
  pose proof (N.div_mod t (N.of_nat (length data)) Hl).
  pose proof (N.mod_lt t (N.of_nat (length data)) Hl).
  nia.
Qed.

Lemma lxor4 a b p q : N.lxor (N.lxor a p) (N.lxor b q) = N.lxor (N.lxor a b) (N.lxor p q).
Proof. apply N.bits_inj; intro i. rewrite !N.lxor_spec. destruct (N.testbit a i), (N.testbit b i), (N.testbit p i), (N.testbit q i); reflexivity. Qed.

Lemma land_lxor a b m : N.lxor (N.land a m) (N.land b m) = N.land (N.lxor a b) m.
Proof. apply N.bits_inj; intro i. rewrite !N.lxor_spec, !N.land_spec, N.lxor_spec. destruct (N.testbit a i), (N.testbit b i), (N.testbit m i); reflexivity. Qed.

Lemma crc24_shift_lin p x y : crc24_shift p (N.lxor x y) = N.lxor (crc24_shift p x) (crc24_shift p y).
Proof.
  unfold crc24_shift. rewrite N.shiftl_lxor, N.lxor_spec.
  destruct (N.testbit (N.shiftl x 1) 24), (N.testbit (N.shiftl y 1) 24); cbn [xorb].
  - rewrite lxor4, N.lxor_nilpotent, N.lxor_0_r. reflexivity.
  - rewrite <- (N.lxor_0_r (N.shiftl y 1)) at 2. rewrite lxor4, N.lxor_0_r. reflexivity.
  - rewrite <- (N.lxor_0_r (N.shiftl x 1)) at 2. rewrite lxor4, N.lxor_0_l. reflexivity.
  - reflexivity.
Qed.

Lemma iter_lin (f : N -> N) (Hf : forall x y, f (N.lxor x y) = N.lxor (f x) (f y)) (k : nat) x y :
  Nat.iter k f (N.lxor x y) = N.lxor (Nat.iter k f x) (Nat.iter k f y).
Proof.
  induction k; [reflexivity|].
  change (f (Nat.iter k f (N.lxor x y)) = N.lxor (f (Nat.iter k f x)) (f (Nat.iter k f y))).
  now rewrite IHk, Hf.
Qed.

Lemma crc24_octet_lin p c1 c2 b1 b2 :
  crc24_octet p (N.lxor c1 c2) (N.lxor b1 b2) = N.lxor (crc24_octet p c1 b1) (crc24_octet p c2 b2).
Proof.
  unfold crc24_octet. rewrite N.shiftl_lxor, lxor4.
  rewrite !(N2Nat.inj_iter 8). apply iter_lin. apply crc24_shift_lin.
Qed.

Definition xor_octets (a b : list N) : list N := map (fun p => N.lxor (fst p) (snd p)) (combine a b).

Lemma xor_octets_length a b : length a = length b -> length (xor_octets a b) = length a.
Proof. intro H. unfold xor_octets. rewrite map_length, combine_length. lia. Qed.

Lemma crc24_run_cons p i x a : crc24_run p i (x :: a) = crc24_run p (crc24_octet p i x) a.
Proof. reflexivity. Qed.
Lemma xor_octets_cons x a y b : xor_octets (x :: a) (y :: b) = N.lxor x y :: xor_octets a b.
Proof. reflexivity. Qed.

Lemma crc24_run_lin p a : forall b i1 i2, length a = length b ->
  crc24_run p (N.lxor i1 i2) (xor_octets a b) = N.lxor (crc24_run p i1 a) (crc24_run p i2 b).
Proof.
  induction a as [|x a IH]; intros [|y b] i1 i2 H; try discriminate; [reflexivity|].
  rewrite xor_octets_cons, !crc24_run_cons, crc24_octet_lin. apply IH. now inversion H.
Qed.

(* the checksum is an affine function of the data over GF(2): for equally long a, b, c
   crc(a xor b xor c) = crc(a) xor crc(b) xor crc(c) -- in particular the checksum of a corrupted text differs
   from the original by the (initial-value free) checksum of the error pattern alone *)
Theorem crc24_affine : forall a b c, length a = length b -> length b = length c ->
  crc24 (xor_octets (xor_octets a b) c) = N.lxor (N.lxor (crc24 a) (crc24 b)) (crc24 c).
Proof.
  intros a b c H1 H2. unfold crc24.
  rewrite !land_lxor.
  rewrite <- !crc24_run_lin; try assumption.
  - rewrite N.lxor_nilpotent, N.lxor_0_l. reflexivity.
  - rewrite xor_octets_length; congruence.
Qed.

Lemma crc24_lt l : crc24 l < 16777216.
Proof.
  unfold crc24. change 16777215 with (N.ones 24). rewrite N.land_ones.
  apply N.mod_lt. discriminate.
Qed.

Lemma crc24_octets_spec l : octets (crc24_octets l) /\ be_value (crc24_octets l) = crc24 l.
Proof.
  unfold crc24_octets. rewrite be3_bytes. split; [apply be_bytes_octets|].
  rewrite be_value_bytes. apply N.mod_small, crc24_lt.
Qed.

(* RFC 4880 6.1 reference values: the CRC of the empty text is the initial value, and the parameters are the
   ones the RFC prescribes (regenerated from libTMCG.hh) *)
Lemma crc24_parameters : crc24_init = 11994318 /\ crc24_poly = 25578747 /\ crc24 [] = 11994318.
Proof. vm_compute. repeat split. Qed.

Lemma wrap_short fuel mc l : (length l <= mc)%nat -> wrap_lines fuel mc l = l.
Proof. intro H. destruct fuel; cbn [wrap_lines]; [reflexivity|]. now replace (length l <=? mc)%nat with true by lia. Qed.

(* the checksum line: "=" and the four characters of the three CRC octets, on one line *)
Lemma crc24_encode_chars l : crc24_encode l = PAD :: r64_chars (crc24_octets l).
Proof.
  unfold crc24_encode, radix64_encode, crc24_octets, be3. rewrite radix64_mc_64. cbn [r64_chars Nat.eqb].
  now rewrite wrap_short by (cbn [length]; lia).
Qed.

(* decoding the four characters gives back the three CRC octets *)
Theorem crc24_line_roundtrip : forall l,
  exists cs, crc24_encode l = PAD :: cs /\ length cs = 4%nat /\ radix64_decode cs = crc24_octets l.
Proof.
  intro l. rewrite crc24_encode_chars. eexists. split; [reflexivity|]. split; [reflexivity|].
  apply (radix64_roundtrip false), crc24_octets_spec.
Qed.
