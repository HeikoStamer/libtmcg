(* VtmfLemmas -- proofs about VtmfModel (C01): opening a masked card of the discrete-log encoding. *)
From Coq Require Import ZArith Znumtheory Lia List Bool ZifyBool Permutation.
From LT Require Import Zbase gen_Consts PowmModel PowmLemmas VtmfModel.
Import ListNotations.
Local Open Scope Z_scope.

Definition zsum (l : list Z) : Z := fold_right Z.add 0 l.

Lemma zsum_cons (x : Z) (l : list Z) : zsum (x :: l) = x + zsum l.
Proof. reflexivity. Qed.

Lemma zsum_app (a b : list Z) : zsum (a ++ b) = zsum a + zsum b.
Proof. induction a as [|x a IH]; [reflexivity|]. cbn [app]. rewrite !zsum_cons, IH. lia. Qed.

Lemma zsum_perm (a b : list Z) : Permutation a b -> zsum a = zsum b.
Proof. induction 1; rewrite ?zsum_cons; lia. Qed.

Lemma zsum_scale (R : Z) (xs : list Z) : zsum (map (fun x => R * x) xs) = R * zsum xs.
Proof. induction xs as [|x xs IH]; [cbn; lia|]. cbn [map]. rewrite !zsum_cons, IH. lia. Qed.

Lemma zsum_nonneg (xs : list Z) : Forall (fun e => 0 <= e) xs -> 0 <= zsum xs.
Proof. induction 1 as [|x xs Hx _ IH]; [reflexivity|]. rewrite zsum_cons. lia. Qed.

(* an admissible group: odd modulus, g of prime order q modulo p (Schnorr group or QR group of a safe prime) *)
Definition wf_group (G : group) : Prop :=
  2 < gp G /\ Z.odd (gp G) = true /\ prime (gq G) /\ powm (gg G) (gq G) (gp G) = 1 /\ gg G mod gp G <> 1.

(* exponents the fixed-base tables are built for *)
Definition wfe (G : group) (e : Z) : Prop := 0 <= e /\ bitlen e <= Z.min (bitlen (gq G)) TMCG_MAX_FPOWM_T.

Lemma bitlen_of_pos (x : Z) : 0 < x -> bitlen x = Z.log2 x + 1.
Proof. intros. unfold bitlen. destruct (Z.eqb_spec x 0); [lia|]. now rewrite Z.abs_eq by lia. Qed.

Lemma bitlen_mono (a b : Z) : 0 <= a <= b -> bitlen a <= bitlen b.
Proof.
  intros H. unfold bitlen. destruct (Z.eqb_spec a 0), (Z.eqb_spec b 0); try lia.
  - pose proof (Z.log2_nonneg (Z.abs b)). lia.
  - rewrite !Z.abs_eq by lia. pose proof (Z.log2_le_mono a b). lia.
Qed.

Lemma bitlen_lt_pow2 (t w : Z) : 0 <= t < 2 ^ w -> 0 <= w -> bitlen t <= Z.max 1 w.
Proof.
  intros H Hw. destruct (Z.eq_dec t 0) as [->|]; [cbn; lia|].
  rewrite bitlen_of_pos by lia. pose proof (Z.log2_lt_pow2 t w ltac:(lia)). lia.
Qed.

Lemma wfe_nonneg (G : group) (xs : list Z) : Forall (wfe G) xs -> Forall (fun e => 0 <= e) xs.
Proof. apply Forall_impl. intros a [H _]. exact H. Qed.

Lemma map_res_ok {A B} (P : A -> Prop) (f : A -> res B) (h : A -> B) (xs : list A) :
  (forall x, P x -> f x = inl (h x)) -> Forall P xs -> map_res f xs = inl (map h xs).
Proof.
  intros H. induction 1 as [|x xs Hx _ IH]; [reflexivity|]. cbn [map_res map].
  rewrite H, IH by assumption. reflexivity.
Qed.

Section Group.
  Variable G : group.
  Hypothesis WF : wf_group G.
  Let p := gp G.
  Let q := gq G.
  Let g := gg G.

  Let Hp : 2 < p. Proof. apply WF. Qed.
  Let Hodd : Z.odd p = true. Proof. apply WF. Qed.
  Let Hq : prime q. Proof. apply WF. Qed.
  Let Hgq : powm g q p = 1. Proof. apply WF. Qed.
  Let Hg1 : g mod p <> 1. Proof. apply WF. Qed.
  Let q2 : 2 <= q. Proof. now apply prime_ge_2. Qed.

  Lemma g_unit : Z.gcd g p = 1.
  Proof.
    apply (inverse_gcd g (g ^ (q - 1)) p); [lia|].
    replace (g * g ^ (q - 1)) with (g ^ q).
    - rewrite <- powm_spec by lia. exact Hgq.
    - replace q with (1 + (q - 1)) at 1 by lia. rewrite Z.pow_add_r, Z.pow_1_r by lia. reflexivity.
  Qed.

  Lemma gpow_unit (e : Z) : 0 <= e -> Z.gcd (powm g e p) p = 1.
  Proof. intros. apply gcd_powm; [lia|assumption|apply g_unit]. Qed.

  Lemma table_some (base : Z) : exists tab, fpowm_precompute base p (bitlen q) = Some tab.
  Proof. unfold fpowm_precompute. destruct (Z.eqb_spec p 0); [lia|eauto]. Qed.

  Lemma tpow_ok (protect : bool) (base e : Z) : Z.gcd base p = 1 -> wfe G e ->
    tpow G protect base e = inl (powm base e p).
  Proof.
    intros U [He Hb]. unfold tpow, table_of. fold p q.
    destruct (table_some base) as [tab E]. rewrite E. cbn [rbind].
    destruct protect.
    - rewrite (fspowm_eq base e p (bitlen q) tab) by (try assumption; lia).
      rewrite Z.abs_eq by lia.
      destruct (invm_coprime (powm base e p) p ltac:(lia) (gcd_powm base e p ltac:(lia) He U)) as [i Ei].
      rewrite Ei. destruct (Z.ltb_spec e 0); [lia|reflexivity].
    - rewrite (fpowm_eq base e p (bitlen q) tab) by (try assumption; lia).
      unfold powm_ref. destruct (Z.ltb_spec e 0); [lia|reflexivity].
  Qed.

  Lemma index_element_tab_ok (tab : list Z) (i : Z) : fpowm_precompute g p (bitlen q) = Some tab -> wfe G i ->
    index_element_tab G tab i = inl (powm g i p).
  Proof.
    intros E [Hi Hb]. unfold index_element_tab. fold p q g.
    rewrite (fpowm_ui_eq g i p (bitlen q) tab) by (try assumption; lia).
    cbn [of_outcome]. now rewrite powm_spec by lia.
  Qed.

  Lemma index_element_ok (i : Z) : wfe G i -> index_element G i = inl (powm g i p).
  Proof.
    intros Hi. unfold index_element, table_of. fold p q g.
    destruct (table_some g) as [tab E]. rewrite E. cbn [rbind]. now apply index_element_tab_ok.
  Qed.

  Lemma key_share_ok (x : Z) : wfe G x -> key_share G x = inl (powm g x p).
  Proof. intros. apply tpow_ok; [apply g_unit|assumption]. Qed.

  Lemma fold_pow (base : Z) (es : list Z) : Forall (fun e => 0 <= e) es -> forall a, 0 <= a ->
    fold_left (fun h hj => (h * hj) mod p) (map (fun e => powm base e p) es) (powm base a p)
    = powm base (a + zsum es) p.
  Proof.
    induction 1 as [|e es He _ IH]; intros a Ha; cbn [map fold_left].
    - now rewrite Z.add_0_r.
    - rewrite zsum_cons, <- powm_add by lia. rewrite IH by lia. f_equal. lia.
  Qed.

  Lemma common_key_ok (x : Z) (xs : list Z) : wfe G x -> Forall (wfe G) xs ->
    common_key G (powm g x p) (map (fun x => powm g x p) xs) = powm g (x + zsum xs) p.
  Proof. intros [Hx _] Hxs. unfold common_key. fold p. apply fold_pow; [now apply (wfe_nonneg G)|assumption]. Qed.

  Lemma dec_share_ok (R x : Z) : 0 <= R -> 0 <= x -> dec_share G (powm g R p) x = inl (powm g (R * x) p).
  Proof.
    intros HR Hx. unfold dec_share. fold p.
    destruct (spowm_ok (powm g R p) x p ltac:(lia) Hodd (gpow_unit R HR)) as [r [E1 E2]].
    rewrite E1. cbn [of_outcome]. unfold powm_ref in E2. destruct (Z.ltb_spec x 0); [lia|].
    inversion E2. now rewrite <- powm_mul by lia.
  Qed.

  (* with D the exponent collected and E the rest: c2 = g^(E + D), d = g^D  ==>  m = g^E *)
  Lemma dec_finalize_ok (E D : Z) : 0 <= E -> 0 <= D ->
    dec_finalize G (powm g D p) (powm g (E + D) p) = inl (powm g E p).
  Proof.
    intros HE HD. unfold dec_finalize. fold p.
    destruct (invm_coprime (powm g D p) p ltac:(lia) (gpow_unit D HD)) as [i Ei]. rewrite Ei.
    apply invm_inverse in Ei; [|lia]. destruct Ei as [_ Hi]. f_equal.
    rewrite powm_add by lia. apply mod_cancel; [exact Hi|apply powm_range; lia].
  Qed.

  Section Rec.
  Variable w : nat.
  Hypothesis Hw : 2 ^ Z.of_nat w <= q.
  Hypothesis Hw2 : Z.of_nat w <= TMCG_MAX_FPOWM_T.

  Lemma small_wfe (t : Z) : 0 <= t < 2 ^ Z.of_nat w -> wfe G t.
  Proof.
    intros Ht. split; [lia|]. fold q. apply Z.min_glb.
    - apply bitlen_mono. lia.
    - pose proof (bitlen_lt_pow2 t (Z.of_nat w) Ht ltac:(lia)). pose proof max_pos. lia.
  Qed.

  Definition expected_type (E : Z) : Z := if E mod q <? 2 ^ Z.of_nat w then E mod q else 2 ^ Z.of_nat w.

  Lemma find_type_spec (tab : list Z) (E : Z) : fpowm_precompute g p (bitlen q) = Some tab -> 0 <= E ->
    forall n t0, 0 <= t0 -> t0 + Z.of_nat n = 2 ^ Z.of_nat w ->
    (forall t, 0 <= t < t0 -> t <> E mod q) ->
    find_type G tab (powm g E p) n t0 (2 ^ Z.of_nat w) = inl (expected_type E).
  Proof.
    intros Etab HE. induction n as [|n IH]; intros t0 Ht0 Hsum Hprev; cbn [find_type].
    - unfold expected_type. destruct (Z.ltb_spec (E mod q) (2 ^ Z.of_nat w)) as [L|L]; [|reflexivity].
      exfalso. apply (Hprev (E mod q)); [|reflexivity]. pose proof (Z.mod_pos_bound E q ltac:(lia)). lia.
    - rewrite (index_element_tab_ok tab t0 Etab) by (apply small_wfe; lia). cbn [rbind].
      destruct (Z.eqb_spec (powm g E p) (powm g t0 p)) as [Eq|Ne].
      + apply (powm_inj_mod_q p q g ltac:(lia) Hq Hgq Hg1) in Eq; [|lia|lia]. unfold expected_type.
        rewrite Eq, (Z.mod_small t0) by lia. destruct (Z.ltb_spec t0 (2 ^ Z.of_nat w)); [reflexivity|lia].
      + apply IH; [lia|lia|]. intros t Ht. destruct (Z.eq_dec t t0) as [->|]; [|apply Hprev; lia].
        intros Et. apply Ne. rewrite Et. symmetry. apply (powm_mod_q p q g ltac:(lia) Hq Hgq E HE).
  Qed.

  Lemma type_of_message_ok (E : Z) : 0 <= E -> type_of_message G w (powm g E p) = inl (expected_type E).
  Proof.
    intros HE. unfold type_of_message, table_of. fold p q g.
    destruct (table_some g) as [tab Etab]. rewrite Etab. cbn [rbind].
    apply find_type_spec; [assumption|assumption|lia| |intros; lia].
    rewrite Nat2Z.inj_pow. reflexivity.
  Qed.
  End Rec.
  Section Key.
  (* cards: (g^R, g^(T + X*R)) where h = g^X *)
  Variable X : Z.
  Hypothesis HX : 0 <= X.
  Let h := powm g X p.

  Definition card_of (T R : Z) : Z * Z := (powm g R p, powm g (T + X * R) p).

  Lemma h_pow (r : Z) : 0 <= r -> powm h r p = powm g (X * r) p.
  Proof. intros. unfold h. now rewrite <- powm_mul by lia. Qed.

  Lemma remask_ok (protect : bool) (T R r : Z) : 0 <= T -> 0 <= R -> wfe G r ->
    remask G h protect (card_of T R) r = inl (card_of T (R + r)).
  Proof.
    intros HT HR Hr. pose proof Hr as [Hr0 _]. unfold remask. fold p g.
    rewrite (tpow_ok protect g r g_unit Hr). cbn [rbind].
    rewrite (tpow_ok protect h r (gpow_unit X HX) Hr). cbn [rbind].
    unfold card_of. cbn [fst snd]. rewrite h_pow by lia.
    rewrite <- !powm_add by nia. f_equal. f_equal; f_equal; lia.
  Qed.

  Lemma remask_chain_ok (chain : list (Z * bool)) : Forall (fun rb => wfe G (fst rb)) chain ->
    forall T R, 0 <= T -> 0 <= R ->
    remask_chain G h (card_of T R) chain = inl (card_of T (R + zsum (map fst chain))).
  Proof.
    induction 1 as [|[r b] chain Hr _ IH]; intros T R HT HR; cbn [remask_chain map fst].
    - now rewrite Z.add_0_r.
    - rewrite zsum_cons. cbn [fst] in Hr. rewrite remask_ok by assumption. cbn [rbind].
      destruct Hr as [Hr0 _]. rewrite IH by lia. f_equal. f_equal. lia.
  Qed.

  Lemma mask_ok (T r : Z) : 0 <= T -> wfe G r -> mask G h (powm g T p) r = inl (card_of T r).
  Proof.
    intros HT Hr. pose proof Hr as [Hr0 _]. unfold mask. fold p g.
    rewrite (tpow_ok true g r g_unit Hr). cbn [rbind].
    rewrite (tpow_ok true h r (gpow_unit X HX) Hr). cbn [rbind].
    unfold card_of. rewrite h_pow by lia. rewrite <- powm_add by nia. f_equal. f_equal. f_equal. lia.
  Qed.

  Lemma create_open_card_ok (T : Z) : wfe G T -> create_open_card G T = inl (card_of T 0).
  Proof.
    intros HT. pose proof HT as [HT0 _]. unfold create_open_card. rewrite index_element_ok by assumption.
    cbn [rbind]. unfold card_of. rewrite Z.mul_0_r, Z.add_0_r. f_equal. f_equal.
    cbn [powm]. rewrite Z.mod_1_l by lia. reflexivity.
  Qed.

  End Key.
End Group.

Theorem open_run_spec (G : group) (w : nat) (x_own : Z) (others contributing missing : list Z) (T : Z)
    (chain : list (Z * bool)) :
  wf_group G -> 2 ^ Z.of_nat w <= gq G -> Z.of_nat w <= TMCG_MAX_FPOWM_T ->
  wfe G x_own -> Forall (wfe G) others -> Permutation others (contributing ++ missing) ->
  0 <= T < 2 ^ Z.of_nat w -> Forall (fun rb => wfe G (fst rb)) chain ->
  open_run G w x_own others contributing T chain
  = inl (expected_type G w (T + zsum (map fst chain) * zsum missing)).
Proof.
  intros WF Hw Hw2 Hx Hothers Perm HT Hchain.
  destruct (proj1 (Forall_app _ _ _) (Permutation_Forall Perm Hothers)) as [Hc Hm].
  pose proof (zsum_nonneg _ (wfe_nonneg G _ Hothers)) as So.
  pose proof (zsum_nonneg _ (wfe_nonneg G _ Hc)) as Sc.
  pose proof (zsum_nonneg _ (wfe_nonneg G _ Hm)) as Sm.
  pose proof Hx as [Hx0 _].
  set (X := x_own + zsum others).
  set (R := zsum (map fst chain)).
  assert (HR : 0 <= R) by (apply zsum_nonneg, Forall_map; eapply Forall_impl; [|exact Hchain]; now intros rb [H _]).
  assert (HTw : wfe G T) by (apply (small_wfe G WF w Hw Hw2); lia).
  unfold open_run.
  rewrite (key_share_ok G WF) by assumption. cbn [rbind].
  rewrite (map_res_ok _ _ _ others (key_share_ok G WF)) by assumption. cbn [rbind].
  rewrite (common_key_ok G WF) by assumption. fold X.
  rewrite (create_open_card_ok G WF X) by assumption. cbn [rbind].
  rewrite (remask_chain_ok G WF X ltac:(lia) chain Hchain) by lia. cbn [rbind]. rewrite Z.add_0_l. fold R.
  unfold card_of. cbn [fst snd].
  rewrite (dec_share_ok G WF) by lia. cbn [rbind].
  rewrite (map_res_ok _ _ _ contributing (fun x => dec_share_ok G WF R x HR)) by now apply (wfe_nonneg G).
  cbn [rbind]. rewrite <- (map_map (fun x => R * x) (fun e => powm (gg G) e (gp G))).
  unfold dec_accumulate.
  rewrite (fold_pow G WF (gg G)); [|apply Forall_map; eapply Forall_impl; [|exact Hc]; intros y [Hy _]; nia|nia].
  rewrite zsum_scale.
  assert (Esum : zsum others = zsum contributing + zsum missing).
  { rewrite (zsum_perm _ _ Perm). apply zsum_app. }
  replace (T + X * R) with ((T + R * zsum missing) + (R * x_own + R * zsum contributing)) by (unfold X; rewrite Esum; ring).
  rewrite (dec_finalize_ok G WF) by nia. cbn [rbind].
  apply (type_of_message_ok G WF w Hw Hw2). nia.
Qed.

Lemma expected_type_small (G : group) (w : nat) (T : Z) : 2 ^ Z.of_nat w <= gq G -> 0 <= T < 2 ^ Z.of_nat w ->
  expected_type G w T = T.
Proof.
  intros Hw HT. unfold expected_type. rewrite Z.mod_small by lia.
  destruct (Z.ltb_spec T (2 ^ Z.of_nat w)); [reflexivity|lia].
Qed.

(* all k players contribute, in any order: the card opens to T *)
Corollary open_all_contribute (G : group) (w : nat) (x_own : Z) (others contributing : list Z) (T : Z)
    (chain : list (Z * bool)) :
  wf_group G -> 2 ^ Z.of_nat w <= gq G -> Z.of_nat w <= TMCG_MAX_FPOWM_T ->
  wfe G x_own -> Forall (wfe G) others -> Permutation others contributing ->
  0 <= T < 2 ^ Z.of_nat w -> Forall (fun rb => wfe G (fst rb)) chain ->
  open_run G w x_own others contributing T chain = inl T.
Proof.
  intros WF Hw Hw2 Hx Ho Perm HT Hc.
  rewrite (open_run_spec G w x_own others contributing [] T chain) by (try assumption; now rewrite app_nil_r).
  cbn [zsum fold_right]. now rewrite Z.mul_0_r, Z.add_0_r, expected_type_small.
Qed.

Corollary open_all_shares (G : group) (w : nat) (x_own : Z) (others : list Z) (T : Z) (chain : list (Z * bool)) :
  wf_group G -> 2 ^ Z.of_nat w <= gq G -> Z.of_nat w <= TMCG_MAX_FPOWM_T ->
  wfe G x_own -> Forall (wfe G) others -> 0 <= T < 2 ^ Z.of_nat w -> Forall (fun rb => wfe G (fst rb)) chain ->
  open_run G w x_own others others T chain = inl T.
Proof. intros. now apply open_all_contribute. Qed.

(* a missing contribution: unless q divides R * x_missing, the result is never T (it is either another
   valid type or, for all but 2^w - 1 of the q residues, the sentinel 2^w) *)
Corollary open_missing_not_T (G : group) (w : nat) (x_own : Z) (others contributing missing : list Z) (T : Z)
    (chain : list (Z * bool)) (t : Z) :
  wf_group G -> 2 ^ Z.of_nat w <= gq G -> Z.of_nat w <= TMCG_MAX_FPOWM_T ->
  wfe G x_own -> Forall (wfe G) others -> Permutation others (contributing ++ missing) ->
  0 <= T < 2 ^ Z.of_nat w -> Forall (fun rb => wfe G (fst rb)) chain ->
  (zsum (map fst chain) * zsum missing) mod gq G <> 0 ->
  open_run G w x_own others contributing T chain = inl t -> t <> T.
Proof.
  intros WF Hw Hw2 Hx Ho Perm HT Hc Hne E.
  rewrite (open_run_spec G w x_own others contributing missing T chain) in E by assumption.
  inversion E as [E']. clear E. unfold expected_type.
  pose proof (prime_ge_2 _ (proj1 (proj2 (proj2 WF)))) as q2.
  set (RX := zsum (map fst chain) * zsum missing) in *.
  destruct (Z.ltb_spec ((T + RX) mod gq G) (2 ^ Z.of_nat w)) as [L|L]; [|lia].
  intros Eq. apply Hne.
  replace RX with ((T + RX) - T) by ring.
  rewrite Zminus_mod, Eq, (Z.mod_small T) by lia. rewrite Z.sub_diag. apply Zmod_0_l.
Qed.

(* exactly the sentinel, or a valid type: the two possible outcomes of an opening *)
Lemma expected_type_range (G : group) (w : nat) (E : Z) : 2 <= gq G ->
  0 <= expected_type G w E <= 2 ^ Z.of_nat w.
Proof.
  intros. unfold expected_type. pose proof (Z.mod_pos_bound E (gq G) ltac:(lia)).
  destruct (Z.ltb_spec (E mod gq G) (2 ^ Z.of_nat w)); lia.
Qed.

(* a concrete group (non-vacuity) and a run in which a missing share yields another valid type *)
Lemma prime_11 : prime 11.
Proof.
  apply prime_intro; [lia|]. intros n Hn. apply Zgcd_1_rel_prime.
  assert (n = 1 \/ n = 2 \/ n = 3 \/ n = 4 \/ n = 5 \/ n = 6 \/ n = 7 \/ n = 8 \/ n = 9 \/ n = 10) as C by lia.
  repeat (destruct C as [-> | C]; [reflexivity|]). subst n. reflexivity.
Qed.

Lemma small_group_wf : wf_group {| gp := 23; gq := 11; gg := 2 |}.
Proof.
  unfold wf_group. cbn [gp gq gg]. split; [lia|]. split; [reflexivity|]. split; [exact prime_11|].
  split; [reflexivity|]. cbn. lia.
Qed.

Lemma open_missing_valid_type_witness :
  exists G w x_own others contributing T chain t,
    wf_group G /\ 2 ^ Z.of_nat w <= gq G /\ wfe G x_own /\ Forall (wfe G) others /\
    contributing <> others /\ 0 <= T < 2 ^ Z.of_nat w /\
    open_run G w x_own others contributing T chain = inl t /\ t <> T /\ t <> 2 ^ Z.of_nat w.
Proof.
  exists {| gp := 23; gq := 11; gg := 2 |}, 2%nat, 3, [5], [], 1, [(7, true)], 3.
  split; [exact small_group_wf|]. split; [cbn; lia|]. 
  assert (W : forall e, 0 <= e < 2 ^ Z.of_nat 3 -> wfe {| gp := 23; gq := 11; gg := 2 |} e).
  { apply (small_wfe _ small_group_wf 3); [cbn; lia|pose proof max_ge_64; lia]. }
  split; [apply W; cbn; lia|]. split; [constructor; [apply W; cbn; lia|constructor]|]. split; [discriminate|].
  split; [cbn; lia|]. split; [vm_compute; reflexivity|]. split; [lia|cbn; lia].
Qed.

Lemma rejected_update_unchanged (G : group) (d dj : Z) : dec_update G d (dj, false) = (false, d).
Proof. reflexivity. Qed.

Lemma accepted_update (G : group) (d dj : Z) : dec_update G d (dj, true) = (true, (d * dj) mod gp G).
Proof. reflexivity. Qed.

(* only the accepted attempts count, in their order *)
Lemma dec_attempts_filter (G : group) (atts : list (Z * bool)) : forall d,
  dec_attempts G d atts = dec_accumulate G d (map fst (filter snd atts)).
Proof.
  unfold dec_attempts, dec_accumulate. induction atts as [|[dj ok] tl IH]; intros d; [reflexivity|].
  cbn [fold_left filter snd]. destruct ok; cbn [dec_update snd fst map fold_left]; apply IH.
Qed.

(* offering the attempts and keeping what is accepted accumulates what the shares of the good ones accumulate:
   whatever is done with the accumulated value afterwards (f), and the same exception if a share cannot be computed *)
Lemma offer_accumulate {C} (G : group) (c1 : Z) (f : Z -> res C) (atts : list attempt) : forall d,
  rbind (map_res (offer G c1) atts) (fun l => f (dec_attempts G d l))
  = rbind (map_res (dec_share G c1) (goods atts)) (fun ds => f (dec_accumulate G d ds)).
Proof.
  induction atts as [|[x|dj] tl IH]; intros d; [reflexivity| |]; cbn [map_res offer goods flat_map app]; fold (goods tl).
  - destruct (dec_share G c1 x) as [s|e]; cbn [rbind]; [|reflexivity]. specialize (IH ((d * s) mod gp G)).
    destruct (map_res (offer G c1) tl), (map_res (dec_share G c1) (goods tl)); exact IH.
  - specialize (IH d). destruct (map_res (offer G c1) tl); exact IH.
Qed.

Theorem open_run_att_eq (G : group) (w : nat) (x_own : Z) (others : list Z) (atts : list attempt) (T : Z)
    (chain : list (Z * bool)) :
  open_run_att G w x_own others atts T chain = open_run G w x_own others (goods atts) T chain.
Proof.
  unfold open_run_att, open_run.
  (* the two runs share their first five steps; then they differ as offer_accumulate says *)
  destruct (key_share G x_own) as [h_own|]; [|reflexivity]. cbn [rbind].
  destruct (map_res (key_share G) others) as [hs|]; [|reflexivity]. cbn [rbind].
  destruct (create_open_card G T) as [c0|]; [|reflexivity]. cbn [rbind].
  destruct (remask_chain G _ c0 chain) as [c|]; [|reflexivity]. cbn [rbind].
  destruct (dec_share G (fst c) x_own) as [d_own|]; [|reflexivity]. cbn [rbind].
  exact (offer_accumulate G (fst c) (fun acc => rbind (dec_finalize G acc (snd c)) (type_of_message G w)) atts d_own).
Qed.

(* any interleaving of rejected and accepted update attempts: as soon as the accepted ones are the correct shares of
   all other players, the card opens to T *)
Corollary open_after_rejected_shares (G : group) (w : nat) (x_own : Z) (others : list Z) (atts : list attempt) (T : Z)
    (chain : list (Z * bool)) :
  wf_group G -> 2 ^ Z.of_nat w <= gq G -> Z.of_nat w <= TMCG_MAX_FPOWM_T ->
  wfe G x_own -> Forall (wfe G) others -> Permutation others (goods atts) ->
  0 <= T < 2 ^ Z.of_nat w -> Forall (fun rb => wfe G (fst rb)) chain ->
  open_run_att G w x_own others atts T chain = inl T.
Proof.
  intros. rewrite open_run_att_eq. now apply open_all_contribute.
Qed.
