(* RbcBracha: the Bracha argument on the network model of RbcModel (C14).  gstep_cases reduces every event to the step of one
   honest party, described by the per-call relations of RbcStep .. RbcStep4.  The invariants are stated for an arbitrary
   network state, each group with what follows from it in any state (INV: echo and ready quorums; INV2: payloads fetched
   through the out-of-order handler; INV3: who has processed what, the ready wave; INV4a, INV4b: the FIFO root channel);
   Section OneStep shows that one step preserves them.  They give agreement and integrity for every schedule, totality of
   the agreed digest, and validity and totality at quiescence for schedules without channel switches. *)
From Coq Require Import ZArith List Bool Lia.
From LT Require Import RbcModel RbcLemmas RbcOrder RbcStep RbcStep2 RbcStep3 RbcStep4 RbcAgreement.
Import ListNotations.
Local Open Scope Z_scope.

Lemma msg_eqb_eq : forall a b, msg_eqb a b = true -> a = b.
Proof. intros [a1 a2 a3 a4 a5] [b1 b2 b3 b4 b5]. unfold msg_eqb. cbn. intros E. b2p. subst. reflexivity. Qed.

Definition noswitch (e : event) : bool :=
  match e with ESetID _ _ _ | ERecoverID _ _ _ | EUnsetID _ _ => false | _ => true end.

Section Bracha.
Variables (n t skip : Z) (H : Z -> Z) (toolong : tagT -> Z -> bool) (byz : Z -> bool).
Notation gstep := (gstep n t skip H toolong byz).
Notation run := (grun n t skip H toolong byz).
Notation deliver := (deliver n t skip H toolong).
Notation deliver_from := (deliver_from n t skip H toolong).
Notation pstep := (pstep n t H).
Notation valid := (valid H).
Notation qstep := (qstep n t H).
Notation rcond := (rcond n t).
Notation laccept := (laccept n t).
Notation svalid := (svalid n t H).
Notation pstep2 := (pstep2 n t H).
Notation pstep3 := (pstep3 n t toolong).
Notation pstep4 := (pstep4 n t H toolong skip).
Notation hon p := (honest n byz p = true).

Lemma pstep_fbuf : forall st st' out r off x, pstep st st' out r off -> pstep st (set_fbuf st' x) out r off.
Proof. intros st st' out r off x P. exact P. Qed.

Lemma valid_stable : forall st st' out r off tg, pstep st st' out r off -> valid st tg -> valid st' tg.
Proof.
  intros st st' out r off tg (Fm & _ & _ & Db & Mb & _) [[l R]|(d & D & M)].
  - left. exists l. apply Fm. exact R.
  - destruct (Db tg) as [E|[E _]]; [|congruence].
    destruct (Mb tg) as [E2|[E2|[(v & E2 & E3)|E2]]].
    + right. exists d. rewrite E, E2. auto.
    + right. exists d. rewrite E. split; auto. rewrite E2 in M. subst d. destruct (mbar st' tg); auto.
    + right. exists d. rewrite E. split; auto. rewrite E2. left. congruence.
    + left. exact E2.
Qed.

Lemma can_recv_spec : forall g p l m, can_recv n byz g p l m = true ->
  0 <= l < n /\ (byz l = true \/ In (l, p, m) (gsent g)).
Proof.
  intros g p l m C. unfold can_recv, is_party in C. apply andb_true_iff in C. destruct C as [R C2].
  apply orb_true_iff in C2. b2p. split; [lia|]. destruct C2 as [C2|C2]; auto. right.
  apply existsb_exists in C2. destruct C2 as ([[l' p'] m'] & I & E). unfold sent_eqb in E.
  apply andb_true_iff in E. destruct E as [E E3]. apply msg_eqb_eq in E3. b2p. subst. exact I.
Qed.

(* everything the invariants use about the step of the party *)
Definition xstep (st st' : pst) (out : list (Z * msg)) (r : dres) (offer : option (Z * msg)) : Prop :=
  qstep st st' out offer /\ pstep2 st st' out r offer /\ pstep3 st st' out offer /\ pstep4 st st' out r offer.

(* a step that leaves the party on its channel *)
Definition onchan (st st' : pst) (r : dres) : Prop := cur st' = cur st /\ fifo st' = fifo st /\ deliver_res_ok skip st st' r.

Definition tagged (p : Z) (out : list (Z * msg)) : list (Z * Z * msg) := map (fun dm => (p, fst dm, snd dm)) out.

Lemma in_tagged : forall p out q dst x, In (q, dst, x) (tagged p out) <-> q = p /\ In (dst, x) out.
Proof.
  intros p out q dst x. unfold tagged. rewrite in_map_iff. split.
  - intros ([d0 x0] & E & I). cbn in E. injection E as <- <- <-. auto.
  - intros [-> I]. exists (dst, x). auto.
Qed.

(* g' is g after party p went to st', sent out and returned r *)
Definition stepped (g g' : gst) (p : Z) (st' : pst) (out : list (Z * msg)) (r : dres) : Prop :=
  gp g' = updZ (gp g) p st' /\ gsent g' = gsent g ++ tagged p out /\ glog g' = glog g ++ log_of p r.

(* r-send messages go out only at a Broadcast; otherwise the sequence counter stays, unless the channel is switched *)
Definition rsend_src (e : event) (p : Z) (st st' : pst) (out : list (Z * msg)) : Prop :=
  (no_rsend out /\ (noswitch e = true -> sq st' = sq st)) \/
  exists v coin, e = EBcast p v coin /\ broadcast n p st v coin = (st', out).

Definition party_step (g : gst) (e : event) (g' : gst) : Prop :=
  exists p st' out r offer,
    hon p /\ (forall l m, offer = Some (l, m) -> can_recv n byz g p l m = true) /\
    xstep (gp g p) st' out r offer /\ rsend_src e p (gp g p) st' out /\
    (noswitch e = true -> onchan (gp g p) st' r) /\
    stepped g g' p st' out r.

(* Deliver and DeliverFrom: the four relations of one call, none of which looks at the per-sender buffers *)
Definition psteps (st st' : pst) (out : list (Z * msg)) (r : dres) (off : option (Z * msg)) : Prop :=
  pstep st st' out r off /\ pstep2 st st' out r off /\ pstep3 st st' out off /\ pstep4 st st' out r off.

Lemma deliver_psteps : forall me st off, let o := deliver me st off in psteps st (o_st o) (o_sent o) (o_res o) off.
Proof.
  intros me st off. split; [apply (deliver_pstep n t H toolong skip)|]. split; [apply (deliver_pstep2 n t H toolong skip)|].
  split; [apply (deliver_pstep3 n t H toolong skip)|apply (deliver_pstep4 n t H toolong skip)].
Qed.

Lemma deliver_from_psteps : forall me st i off,
  let o := fst (deliver_from me st i off) in psteps st (o_st o) (o_sent o) (o_res o) off.
Proof.
  intros me st i off. apply (deliver_from_lift n t skip H toolong (fun st' out r => psteps st st' out r off)).
  - intros st' x out r (P1 & P2 & P3 & P4). split; [exact P1|]. split; [apply pstep2_fbuf; exact P2|].
    split; [apply pstep3_fbuf; exact P3|apply pstep4_fbuf; exact P4].
  - split; [apply pstep_idle|]. split; [apply pstep2_same; auto|]. split; [apply pstep3_same; auto|apply pstep4_same; auto]; intros ? ? [].
  - apply deliver_psteps.
Qed.

Lemma call_step : forall g e g' p o off, noswitch e = true -> hon p ->
  (forall l m, off = Some (l, m) -> can_recv n byz g p l m = true) ->
  psteps (gp g p) (o_st o) (o_sent o) (o_res o) off ->
  cur (o_st o) = cur (gp g p) -> sq (o_st o) = sq (gp g p) -> fifo (o_st o) = fifo (gp g p) ->
  deliver_res_ok skip (gp g p) (o_st o) (o_res o) ->
  stepped g g' p (o_st o) (o_sent o) (o_res o) -> party_step g e g'.
Proof.
  intros g e g' p o off Ns Hp CR (P1 & P2 & P3 & P4) C1 C2 C3 DR ST. exists p, (o_st o), (o_sent o), (o_res o), off.
  pose proof (pstep_no_rsend _ _ _ _ _ _ _ _ P1) as NR. pose proof (pstep_qstep _ _ _ _ _ _ _ _ P1) as Q.
  unfold xstep, onchan, rsend_src. tauto.
Qed.

Lemma deliver_step : forall g e g' p off, noswitch e = true -> hon p ->
  (forall l m, off = Some (l, m) -> can_recv n byz g p l m = true) ->
  g' = apply_out g p (deliver p (gp g p) off) -> party_step g e g'.
Proof.
  intros g e g' p off Ns Hp CR ->. destruct (deliver_spec n t skip H toolong p (gp g p) off) as [(C1 & C2 & C3 & _) DR].
  apply (call_step g e _ p (deliver p (gp g p) off) off); auto; [apply deliver_psteps|repeat split].
Qed.

Lemma deliver_from_step : forall g e g' p i off, noswitch e = true -> hon p ->
  (forall l m, off = Some (l, m) -> can_recv n byz g p l m = true) ->
  g' = apply_from g p i (deliver_from p (gp g p) i off) -> party_step g e g'.
Proof.
  intros g e g' p i off Ns Hp CR ->.
  pose proof (deliver_from_spec n t skip H toolong p (gp g p) i off) as DS. cbv zeta in DS. destruct DS as (C1 & C2 & C3 & DR & _).
  apply (call_step g e _ p (fst (deliver_from p (gp g p) i off)) off); auto; [apply deliver_from_psteps|].
  unfold apply_from. destruct (snd (deliver_from p (gp g p) i off)); repeat split.
Qed.

(* Broadcast and the channel switches: the protocol state stays, only r-send messages go out *)
Lemma same_xstep : forall st st' out, same_proto st st' -> (forall dst x, In (dst, x) out -> m_act x = 1) ->
  xstep st st' out RNone None.
Proof.
  intros st st' out S A. pose proof S as (E1 & E2 & E3 & E4 & E5 & E6 & E7 & _). split; [|split; [|split]].
  - apply qstep_same; auto.
  - apply pstep2_same; auto. intros dst x I. apply A in I. lia.
  - apply pstep3_same; auto. intros dst x I. apply A in I. lia.
  - apply pstep4_same; auto. intros dst x I. left. eauto.
Qed.

Lemma switch_step : forall g e p st', noswitch e = false -> hon p -> same_proto (gp g p) st' ->
  party_step g e (set_party g p st').
Proof.
  intros g e p st' Ns Hp S. exists p, st', [], RNone, None.
  split; [exact Hp|]. split; [discriminate|]. split; [apply same_xstep; [exact S|intros ? ? []]|].
  split; [left; split; [intros ? ? []|congruence]|]. split; [congruence|]. unfold stepped, set_party. cbn. rewrite !app_nil_r. auto.
Qed.

Lemma gstep_cases : forall g e, gstep g e = g \/ party_step g e (gstep g e).
Proof.
  intros g e. destruct e; cbn [RbcModel.gstep]; (destruct (honest n byz p) eqn:Hp; [cbn [andb]|auto]).
  - right. unfold broadcast. set (s' := if fifo (gp g p) then sq (gp g p) + 1 else coin).
    exists p, (set_sq (gp g p) s'), (to_all n (Msg (cur (gp g p)) p s' 1 m)), RNone, None.
    split; [exact Hp|]. split; [discriminate|]. split; [|split; [right; eauto|split]].
    + apply same_xstep; [repeat split|]. intros dst x I. apply in_to_all in I. subst x. reflexivity.
    + intros _. repeat split; auto.
    + unfold stepped. cbn. rewrite app_nil_r. auto.
  - destruct (can_recv n byz g p l m) eqn:C; [right|auto].
    eapply (deliver_step g _ _ p (Some (l, m))); auto. intros ? ? [= <- <-]. exact C.
  - right. eapply (deliver_step g _ _ p None); auto. discriminate.
  - destruct (can_recv n byz g p l m) eqn:C; [right|auto].
    eapply (deliver_from_step g _ _ p i (Some (l, m))); auto. intros ? ? [= <- <-]. exact C.
  - right. eapply (deliver_from_step g _ _ p i None); auto. discriminate.
  - right. apply switch_step; auto. apply set_id_same.
  - right. apply switch_step; auto. apply recover_id_same.
  - right. apply switch_step; auto. apply unset_id_same.
Qed.

Hypothesis n_gt_3t : 3 * t < n.
Hypothesis t_nonneg : 0 <= t.
Variable B : list Z.
Hypothesis B_small : Z.of_nat (length B) <= t.
Hypothesis B_byz : forall l, byz l = true -> In l B.

Lemma hon_range : forall l, hon l -> 0 <= l < n.
Proof. intros l Hl. unfold honest, is_party in Hl. b2p. lia. Qed.
Lemma hon_byz : forall l, hon l -> byz l = false.
Proof. intros l Hl. unfold honest in Hl. b2p. assumption. Qed.
Lemma honest_of : forall l, 0 <= l < n -> ~ In l B -> hon l.
Proof.
  intros l R NB. unfold honest, is_party. destruct (byz l) eqn:Y; [elim NB; auto|].
  rewrite andb_true_r. apply andb_true_iff. split; [apply Z.leb_le|apply Z.ltb_lt]; lia.
Qed.

(* c distinct parties, each Byzantine or with property S *)
Definition quorum (c : Z) (S : Z -> Prop) : Prop :=
  exists L, NoDup L /\ c <= Z.of_nat (length L) /\ forall l, In l L -> 0 <= l < n /\ (byz l = true \/ S l).

Lemma quorum_mono : forall c c' (S S' : Z -> Prop), c' <= c -> (forall l, S l -> S' l) -> quorum c S -> quorum c' S'.
Proof.
  intros c c' S S' Le M (L & ND & Len & AL). exists L. split; [exact ND|]. split; [lia|].
  intros l I. destruct (AL l I) as (R & [Y|X]); auto.
Qed.

Lemma quorum_honest : forall c S, quorum c S -> t < c -> exists l, hon l /\ S l.
Proof.
  intros c S (L & ND & Len & AL) Lt. destruct (nodup_exceeds_honest B L ND) as (l & I & NB); [lia|].
  destruct (AL l I) as (R & [Y|X]); [elim NB; auto|]. exists l. split; [apply honest_of|]; auto.
Qed.

Lemma quorum_meet : forall c1 c2 S1 S2, quorum c1 S1 -> quorum c2 S2 -> n + t < c1 + c2 -> exists l, hon l /\ S1 l /\ S2 l.
Proof.
  intros c1 c2 S1 S2 (L1 & ND1 & Len1 & AL1) (L2 & ND2 & Len2 & AL2) Lt.
  destruct (intersect_honest n B L1 L2) as (l & J1 & J2 & NB); auto; try lia.
  { intros l J. apply AL1 in J. tauto. } { intros l J. apply AL2 in J. tauto. }
  destruct (AL1 l J1) as (R & [Y|X1]); [elim NB; auto|]. destruct (AL2 l J2) as (_ & [Y|X2]); [elim NB; auto|].
  exists l. split; [apply honest_of|]; auto.
Qed.

(* l has sent q a message of kind a for (tg, d) *)
Definition sent (g : gst) (l q : Z) (tg : tagT) (a d : Z) : Prop :=
  exists m, In (l, q, m) (gsent g) /\ mtag m = tg /\ m_act m = a /\ m_pay m = d.
Definition echoed (g : gst) (q : Z) (tg : tagT) (d : Z) : Prop := exists dst, sent g q dst tg 2 d.
(* d is supported for tg: n - t distinct parties are Byzantine or have really echoed d *)
Definition Sup (g : gst) (tg : tagT) (d : Z) : Prop := quorum (n - t) (fun l => echoed g l tg d).

(* the counter value c of the party p (in state st) is backed by c distinct parties l, each with its first-time filter set at p
   and each Byzantine or having really sent the counted message to p *)
Definition counted (g : gst) (st : pst) (p : Z) (k : fkind) (a : Z) (tg : tagT) (d c : Z) : Prop :=
  exists L, NoDup L /\ c <= Z.of_nat (length L) /\ (forall l, In l L -> filt st k l tg = true) /\
    forall l, In l L -> 0 <= l < n /\ (byz l = true \/ sent g l p tg a d).
Definition count_ok (cnt : pst -> tagT -> Z -> Z) (k : fkind) (a : Z) (g : gst) : Prop :=
  forall p tg d, counted g (gp g p) p k a tg d (cnt (gp g p) tg d).

Lemma counted_quorum : forall g st p k a tg d c, counted g st p k a tg d c -> quorum c (fun l => sent g l p tg a d).
Proof. intros g st p k a tg d c (L & ND & Len & _ & AL). exists L. auto. Qed.

(* all of these only grow with the network *)
Section Mono.
Variables g g' : gst.
Hypothesis grows : incl (gsent g) (gsent g').

Lemma sent_mono : forall l q tg a d, sent g l q tg a d -> sent g' l q tg a d.
Proof. intros l q tg a d (m & I & E). exists m. auto. Qed.
Lemma echoed_mono : forall q tg d, echoed g q tg d -> echoed g' q tg d.
Proof. intros q tg d (dst & S). exists dst. apply sent_mono. exact S. Qed.
Lemma Sup_mono : forall tg d, Sup g tg d -> Sup g' tg d.
Proof. intros tg d. apply quorum_mono; [lia|]. intros l. apply echoed_mono. Qed.
Lemma counted_mono : forall st q k a tg d c, counted g st q k a tg d c -> counted g' st q k a tg d c.
Proof.
  intros st q k a tg d c (L & ND & Len & AF & AL). exists L. split; [exact ND|]. split; [exact Len|]. split; [exact AF|].
  intros l I. destruct (AL l I) as (R & [Y|M]); auto using sent_mono.
Qed.
End Mono.

(* an echo is sent only on the first r-send received from the sender of the tag *)
Definition echo_after_rsend (g : gst) := forall q dst x, In (q, dst, x) (gsent g) -> m_act x = 2 -> filt (gp g q) FSend (m_j x) (mtag x) = true.
(* a party sends one payload per tag in messages of kind a *)
Definition UQ (a : Z) (g : gst) := forall q d1 x1 d2 x2, In (q, d1, x1) (gsent g) -> In (q, d2, x2) (gsent g) ->
  m_act x1 = a -> m_act x2 = a -> mtag x1 = mtag x2 -> m_pay x1 = m_pay x2.
(* an echo carries the digest of an r-send that the sender of the tag sent to the echoing party, or the sender is Byzantine *)
Definition echo_has_rsend (g : gst) := forall q dst x, In (q, dst, x) (gsent g) -> m_act x = 2 ->
  exists m, mtag m = mtag x /\ m_act m = 1 /\ m_pay x = H (m_pay m) /\ (byz (m_j x) = true \/ In (m_j x, q, m) (gsent g)).
(* an r-ready in the network goes back to an honest party with n - t echoes for its digest *)
Definition ready_has_echo_quorum (g : gst) := forall q dst x, In (q, dst, x) (gsent g) -> m_act x = 3 ->
  exists q', hon q' /\ n - t <= ed (gp g q') (mtag x) (m_pay x).
(* a digest is fixed only with 2t+1 r-ready (dbar_at_2t1 below is the converse) *)
Definition dbar_needs_2t1 (g : gst) := forall q tg d, dbar (gp g q) tg = Some d -> 2 * t + 1 <= rd (gp g q) tg d.

Set Implicit Arguments.
Record INV (g : gst) : Prop := {
  INV_echoes_counted : count_ok ed FEcho 2 g;
  INV_readys_counted : count_ok rd FReady 3 g;
  INV_echo_after_rsend : echo_after_rsend g;
  INV_echo_unique : UQ 2 g;
  INV_echo_has_rsend : echo_has_rsend g;
  INV_ready_has_echo_quorum : ready_has_echo_quorum g;
  INV_dbar_needs_2t1 : dbar_needs_2t1 g }.
Unset Implicit Arguments.

Lemma mtag_j : forall x id j s, mtag x = (id, j, s) -> m_j x = j.
Proof. intros x id j s E. unfold mtag in E. inversion E. reflexivity. Qed.

Lemma ready_Sup : forall g, INV g -> forall q dst x, In (q, dst, x) (gsent g) -> m_act x = 3 -> Sup g (mtag x) (m_pay x).
Proof.
  intros g Ig q dst x I A. destruct (INV_ready_has_echo_quorum Ig _ _ _ I A) as (p1 & _ & E1).
  eapply quorum_mono; [exact E1| |exact (counted_quorum _ _ _ _ _ _ _ _ (INV_echoes_counted Ig p1 (mtag x) (m_pay x)))].
  intros l S. exists p1. exact S.
Qed.

(* an honest party echoes one digest per tag, and two echo quorums share an honest party *)
Lemma Sup_unique : forall g, INV g -> forall tg d d', Sup g tg d -> Sup g tg d' -> d = d'.
Proof.
  intros g Ig tg d d' S1 S2.
  destruct (quorum_meet _ _ _ _ S1 S2) as (l & _ & (dst1 & m1 & Im1 & Tm1 & Am1 & Pm1) & dst2 & m2 & Im2 & Tm2 & Am2 & Pm2); [lia|].
  rewrite <- Pm1, <- Pm2. eapply (INV_echo_unique Ig); eauto. congruence.
Qed.

Lemma ready_digest_unique : forall g, INV g -> UQ 3 g.
Proof.
  intros g I q d1 x1 d2 x2 I1 I2 A1 A2 T. apply (Sup_unique g I (mtag x1)); [|rewrite T]; eapply ready_Sup; eauto.
Qed.

(* an agreed digest is supported: one of its 2t+1 r-ready was really sent by an honest party *)
Lemma dbar_Sup : forall g, INV g -> forall p tg d, dbar (gp g p) tg = Some d -> Sup g tg d.
Proof.
  intros g Ig p tg d D. apply (INV_dbar_needs_2t1 Ig) in D.
  destruct (quorum_honest _ _ (counted_quorum _ _ _ _ _ _ _ _ (INV_readys_counted Ig p tg d))) as (l & _ & m & Im & Tm & Am & Pm); [lia|].
  rewrite <- Tm, <- Pm. eapply ready_Sup; eauto.
Qed.

Theorem dbar_agree : forall g, INV g -> forall p q tg d d',
  dbar (gp g p) tg = Some d -> dbar (gp g q) tg = Some d' -> d = d'.
Proof. intros g I p q tg d d' D1 D2. eapply Sup_unique; eauto using dbar_Sup. Qed.

(* a supported digest goes back to an r-send received on the link of the tag's sender *)
Lemma Sup_send : forall g, INV g -> forall tg d, Sup g tg d ->
  exists e m, mtag m = tg /\ m_act m = 1 /\ d = H (m_pay m) /\ (byz (m_j m) = true \/ In (m_j m, e, m) (gsent g)).
Proof.
  intros g Ig tg d S.
  destruct (quorum_honest _ _ S) as (l & _ & dst & x & Ix & Tx & Ax & Px); [lia|].
  destruct (INV_echo_has_rsend Ig _ _ _ Ix Ax) as (m & Tm & Am & Pm & M). exists l, m. rewrite (mtag_j _ _ _ _ Tm). repeat split; congruence.
Qed.

Hypothesis H_nonzero : forall m, H m <> 0.

Lemma dbar_nonzero : forall g, INV g -> forall p tg d, dbar (gp g p) tg = Some d -> d <> 0.
Proof.
  intros g I p tg d D. destruct (Sup_send g I tg d (dbar_Sup g I _ _ _ D)) as (e & m & _ & _ & -> & _). apply H_nonzero.
Qed.

(* the digest of a stored payload was echoed by its holder, or is supported *)
Definition payload_backed (g : gst) := forall q tg x, mbar (gp g q) tg = Some x -> echoed g q tg (H x) \/ Sup g tg (H x).
(* ... and so is the digest of every l-deliver answer *)
Definition lanswer_backed (g : gst) := forall q dst m, In (q, dst, m) (gsent g) -> m_act m = 7 ->
  echoed g q (mtag m) (H (m_pay m)) \/ Sup g (mtag m) (H (m_pay m)).
(* an entry of the retrieve buffer is the payload of an l-deliver answer that this peer sent, or the peer is Byzantine *)
Definition ldeliver_received (g : gst) := forall p k tg, filt (gp g p) FDeliver k tg = true ->
  0 <= k < n /\ (byz k = true \/ sent g k p tg 7 (rbuf (gp g p) tg k)).
(* what waits in the deliver buffer, and what was delivered, has a payload with a supported digest *)
Definition dbuf_supported (g : gst) := forall q tg, In tg (dbuf (gp g q)) -> exists x, mbar (gp g q) tg = Some x /\ Sup g tg (H x).
Definition log_supported (g : gst) := forall q tg v, In (q, tg, v) (glog g) -> Sup g tg (H v).
Set Implicit Arguments.
Record INV2 (g : gst) : Prop := {
  INV2_payload_backed : payload_backed g;
  INV2_lanswer_backed : lanswer_backed g;
  INV2_ldeliver_received : ldeliver_received g;
  INV2_dbuf_supported : dbuf_supported g;
  INV2_log_supported : log_supported g }.
Unset Implicit Arguments.

Lemma all_or : forall (P : Z -> Prop) (S : Prop) (L : list Z),
  (forall k, In k L -> P k \/ S) -> S \/ forall k, In k L -> P k.
Proof.
  intros P S. induction L as [|a r IH]; intros A.
  - right. intros k [].
  - destruct (A a (or_introl eq_refl)) as [Pa|Sa]; [|left; exact Sa].
    destruct IH as [Sr|Pr]; [intros k I; apply A; right; exact I|left; exact Sr|].
    right. intros k [<-|I]; auto.
Qed.

(* a payload the handler accepted: its n - t answers come from parties that echoed its digest, or one of them already had
   a supported payload *)
Lemma laccept_Sup : forall g, ldeliver_received g -> lanswer_backed g -> forall p tg x, laccept (gp g p) tg x -> Sup g tg (H x).
Proof.
  intros g Rh Om p tg x (L & ND & Len & AL).
  destruct (all_or (fun k => 0 <= k < n /\ (byz k = true \/ echoed g k tg (H x))) (Sup g tg (H x)) L) as [S|A]; auto.
  - intros k I. destruct (AL k I) as (F & R). destruct (Rh _ _ _ F) as (Rg & [Y|(m & Im & Tm & Am & Pm)]); auto.
    rewrite R in Pm. destruct (Om _ _ _ Im Am) as [E|S]; rewrite Tm, Pm in *; auto.
  - exists L. auto.
Qed.

Lemma svalid_Sup : forall g, INV g -> ldeliver_received g -> lanswer_backed g -> forall p tg, svalid (gp g p) tg ->
  exists x, mbar (gp g p) tg = Some x /\ Sup g tg (H x).
Proof.
  intros g I Rh Om p tg [(d & D & M)|(x & M & LA)].
  - pose proof (dbar_nonzero g I _ _ _ D) as NZ. destruct (mbar (gp g p) tg) as [v|]; [|contradiction].
    destruct M as [M|M]; [|contradiction]. exists v. split; auto. rewrite M. eapply dbar_Sup; eauto.
  - exists x. split; auto. eapply laccept_Sup; eauto.
Qed.

Definition kind_of (a : Z) : fkind :=
  if a =? 1 then FSend else if a =? 2 then FEcho else if a =? 3 then FReady else if a =? 4 then FRequest else FAnswer.
(* a set first-time filter goes back to a message from that peer (kind_of is meant for the kinds a = 1 .. 5 only) *)
Definition filter_src (a : Z) (g : gst) := forall q l tg, filt (gp g q) (kind_of a) l tg = true -> byz l = true \/ exists d, sent g l q tg a d.
(* messages of kind a go to everybody *)
Definition sent_to_all (a : Z) (g : gst) := forall l dst x, In (l, dst, x) (gsent g) -> m_act x = a -> forall i, 0 <= i < n -> In (l, i, x) (gsent g).
(* the ready rule has fired; for t = 0 there is no amplification, and one r-ready fixes the digest *)
Definition ready_rule_fired (g : gst) := forall q tg d, rcond (gp g q) tg d ->
  (exists dst, sent g q dst tg 3 d) \/ (t = 0 /\ 1 <= rd (gp g q) tg d).
(* 2t+1 r-ready fix the digest *)
Definition dbar_at_2t1 (g : gst) := forall q tg d, 2 * t + 1 <= rd (gp g q) tg d -> dbar (gp g q) tg <> None.
(* the counter counts every message of kind a for (tg, d) from an honest peer that has been processed *)
Definition complete (cnt : pst -> tagT -> Z -> Z) (a : Z) (g : gst) := forall q tg d, toolong tg d = false ->
  exists L, NoDup L /\ Z.of_nat (length L) = cnt (gp g q) tg d /\
    (forall l, In l L -> filt (gp g q) (kind_of a) l tg = true) /\
    (forall l, filt (gp g q) (kind_of a) l tg = true -> byz l = false -> sent g l q tg a d -> In l L).
Set Implicit Arguments.
Record INV3 (g : gst) : Prop := {
  INV3_echo_src : filter_src 2 g;
  INV3_ready_src : filter_src 3 g;
  INV3_request_src : filter_src 4 g;
  INV3_echo_to_all : sent_to_all 2 g;
  INV3_ready_to_all : sent_to_all 3 g;
  INV3_ready_rule_fired : ready_rule_fired g;
  INV3_dbar_at_2t1 : dbar_at_2t1 g;
  INV3_echoes_complete : complete ed 2 g;
  INV3_readys_complete : complete rd 3 g }.
Unset Implicit Arguments.

(* every message of kind a addressed to an honest party has been processed by it *)
Definition handed (a : Z) (g : gst) : Prop :=
  forall l q m, In (l, q, m) (gsent g) -> m_act m = a -> hon q -> filt (gp g q) (kind_of a) l (mtag m) = true.

(* if the honest members of a list L0 of parties have all sent the message of kind a for (tg, d) to somebody, an honest party
   that has processed everything has counted at least |L0| - t of them *)
Lemma honest_counted : forall cnt a g, complete cnt a g -> sent_to_all a g -> handed a g -> forall tg d q, toolong tg d = false -> hon q ->
  forall L0, NoDup L0 -> (forall l, In l L0 -> ~ In l B -> 0 <= l < n /\ exists dst, sent g l dst tg a d) ->
  Z.of_nat (length L0) - t <= cnt (gp g q) tg d.
Proof.
  intros cnt a g CP Sa HO tg d q TL Hq L0 ND AL. destruct (CP q tg d TL) as (L & _ & <- & _ & AC).
  assert (INC : forall l, In l L0 -> In l B \/ In l L).
  { intros l J. destruct (in_dec Z.eq_dec l B) as [IB|NB]; [left; exact IB|right].
    destruct (AL l J NB) as (R & dst & m & Im & Tm & Am & Pm).
    pose proof (Sa _ _ _ Im Am q (hon_range q Hq)) as Iq. apply AC.
    - rewrite <- Tm. apply (HO _ _ _ Iq Am Hq).
    - apply hon_byz. apply honest_of; auto.
    - exists m. auto. }
  apply nodup_minus_length in INC; auto. lia.
Qed.

(* every party sits on the FIFO root channel (runs without channel switches) *)
Definition on_root (g : gst) := forall p, cur (gp g p) = 0 /\ fifo (gp g p) = true.
(* the delivery counter and the log: delivered slots of sender w are exactly 1 .. deliver_s[w]-1 *)
Definition log_counter (g : gst) :=
  (forall q id w s v, In (q, (id, w, s), v) (glog g) -> id = 0 /\ 1 <= s < dls (gp g q) w) /\
  (forall q w s, 1 <= s < dls (gp g q) w -> exists v, In (q, (0, w, s), v) (glog g)) /\
  (forall q w, 1 <= dls (gp g q) w).
(* who has echoed holds a payload for the tag *)
Definition echo_has_payload (g : gst) := forall p dst x, In (p, dst, x) (gsent g) -> m_act x = 2 -> mbar (gp g p) (mtag x) <> None.
(* r-send messages of a party on the FIFO channel: numbered 1 .. s, one payload per number, sent to everybody *)
Definition rsend_numbered (g : gst) := forall j dst m, In (j, dst, m) (gsent g) -> m_act m = 1 -> m_id m = 0 /\ m_j m = j /\ 1 <= m_s m <= sq (gp g j).
Definition rsend_to_all (g : gst) := forall j, 0 <= sq (gp g j) /\
  forall s, 1 <= s <= sq (gp g j) -> exists v, forall i, 0 <= i < n -> In (j, i, Msg 0 j s 1 v) (gsent g).

Set Implicit Arguments.
Record INV4a (g : gst) : Prop := {
  INV4a_on_root : on_root g;
  INV4a_log_counter : log_counter g;
  INV4a_echo_has_payload : echo_has_payload g;
  INV4a_rsend_numbered : rsend_numbered g;
  INV4a_rsend_unique : UQ 1 g;
  INV4a_rsend_to_all : rsend_to_all g }.
Unset Implicit Arguments.

(* a supported digest of a tag whose sender is not faulty is the digest of what that sender sent *)
Lemma Sup_send_digest : forall g, INV g -> UQ 1 g -> forall k id s d, Sup g (id, k, s) d -> byz k = false ->
  forall dst m, In (k, dst, m) (gsent g) -> m_act m = 1 -> mtag m = (id, k, s) -> d = H (m_pay m).
Proof.
  intros g I A1 k id s d S Nb dst m Im Am Tm. destruct (Sup_send g I _ d S) as (e & m' & Tm' & Am' & -> & M).
  rewrite (mtag_j _ _ _ _ Tm') in M. destruct M as [M|M]; [congruence|]. f_equal. eapply A1; eauto. congruence.
Qed.

(* a party that has processed the r-send of an honest sender stores its payload and has echoed its digest *)
Definition rsend_echoed (g : gst) := forall q k id s, filt (gp g q) FSend k (id, k, s) = true -> byz k = false ->
  exists v, (exists dst, sent g k dst (id, k, s) 1 v) /\ mbar (gp g q) (id, k, s) = Some v /\ echoed g q (id, k, s) (H v).
(* a party requests the payload of the digest it has fixed *)
Definition request_has_dbar (g : gst) := forall q dst x, In (q, dst, x) (gsent g) -> m_act x = 4 -> dbar (gp g q) (mtag x) = Some (m_pay x).
(* when a request was sent, an echo quorum for the requested digest existed; its honest members answer when asked *)
Definition request_quorum (g : gst) := forall q dst x, In (q, dst, x) (gsent g) -> m_act x = 4 ->
  quorum (n - t) (fun l => echoed g l (mtag x) (m_pay x) /\
    (filt (gp g l) FRequest q (mtag x) = true -> exists a, In (l, q, a) (gsent g) /\ m_act a = 5 /\ mtag a = mtag x)).
(* an r-answer answers a request, with a payload whose digest its sender echoed or that is supported *)
Definition ranswer_backed (g : gst) := forall l q a, In (l, q, a) (gsent g) -> m_act a = 5 ->
  (byz q = true \/ exists m, In (q, l, m) (gsent g) /\ m_act m = 4 /\ mtag m = mtag a) /\
  (echoed g l (mtag a) (H (m_pay a)) \/ Sup g (mtag a) (H (m_pay a))).
(* a delivery attempt was made for tg at q: delivered, waiting in the deliver buffer, or dropped as obsolete *)
Definition TD (g : gst) (q : Z) (tg : tagT) : Prop :=
  (exists v, In (q, tg, v) (glog g)) \/ In tg (dbuf (gp g q)) \/ obsolete (gp g q) tg = true.
(* a processed r-answer of an honest party led to a delivery attempt, unless its digest is not the fixed one *)
Definition answer_tried (g : gst) := forall q l tg, filt (gp g q) FAnswer l tg = true -> byz l = false ->
  TD g q tg \/ exists a db, In (l, q, a) (gsent g) /\ m_act a = 5 /\ mtag a = tg /\ dbar (gp g q) tg = Some db /\ db <> H (m_pay a).
(* a fixed digest led to a delivery attempt, or to a request to the parties 0 .. 2t *)
Definition dbar_tried (g : gst) := forall q tg, dbar (gp g q) tg <> None ->
  TD g q tg \/ exists x, m_act x = 4 /\ mtag x = tg /\ forall i, 0 <= i <= 2 * t -> In (q, i, x) (gsent g).

Definition has_dbar (g : gst) (tg : tagT) : Prop := exists p' d, dbar (gp g p') tg = Some d.
(* on the FIFO root channel every delivery, every deliver-buffer entry and every l-deliver answer for a root-channel tag goes
   back to a party that fixed a digest by 2t+1 r-ready *)
Definition delivery_has_dbar (g : gst) :=
  (forall q w s v, In (q, (0, w, s), v) (glog g) -> has_dbar g (0, w, s)) /\
  (forall q w s, In (0, w, s) (dbuf (gp g q)) -> has_dbar g (0, w, s)) /\
  (forall l dst x, In (l, dst, x) (gsent g) -> m_act x = 7 -> m_id x = 0 -> has_dbar g (mtag x)).

Set Implicit Arguments.
Record INV4b (g : gst) : Prop := {
  INV4b_rsend_echoed : rsend_echoed g;
  INV4b_request_has_dbar : request_has_dbar g;
  INV4b_request_quorum : request_quorum g;
  INV4b_ranswer_backed : ranswer_backed g;
  INV4b_answer_tried : answer_tried g;
  INV4b_dbar_tried : dbar_tried g;
  INV4b_delivery_has_dbar : delivery_has_dbar g }.
Unset Implicit Arguments.

Section OneStep.
Variables (g g' : gst) (p : Z) (st' : pst) (out : list (Z * msg)) (r : dres) (offer : option (Z * msg)).
Hypothesis Hp : hon p.
Hypothesis CR : forall l m, offer = Some (l, m) -> can_recv n byz g p l m = true.
Hypothesis Q : qstep (gp g p) st' out offer.
Hypothesis Egp : gp g' = updZ (gp g) p st'.
Hypothesis Esent : gsent g' = gsent g ++ tagged p out.
Hypothesis Elog : glog g' = glog g ++ log_of p r.

Lemma up : incl (gsent g) (gsent g').
Proof. intros x I. rewrite Esent. apply in_or_app. auto. Qed.
Lemma out_sent : forall dst x, In (dst, x) out -> In (p, dst, x) (gsent g').
Proof. intros dst x I. rewrite Esent. apply in_or_app. right. apply in_tagged. auto. Qed.
Lemma sent_new : forall q dst x, In (q, dst, x) (gsent g') -> In (q, dst, x) (gsent g) \/ (q = p /\ In (dst, x) out).
Proof. intros q dst x I. rewrite Esent in I. apply in_app_or in I. destruct I as [I|I]; auto. right. apply in_tagged. exact I. Qed.
Lemma log_new : forall q tg v, In (q, tg, v) (glog g') -> In (q, tg, v) (glog g) \/ (q = p /\ exists who, r = RDeliver who tg v).
Proof.
  intros q tg v I. rewrite Elog in I. apply in_app_or in I. destruct I as [I|I]; auto. right.
  destruct r as [|who tg0 v0|]; cbn in I; try contradiction. destruct I as [I|[]]. injection I as <- <- <-. eauto.
Qed.
Lemma gp_p : gp g' p = st'.
Proof. rewrite Egp. apply updZ_same. Qed.
Lemma gp_other : forall q, q <> p -> gp g' q = gp g q.
Proof. intros q N. rewrite Egp. apply updZ_other. exact N. Qed.

(* the party q is p, whose state is now st', or another one, whose state is unchanged *)
Ltac party q := destruct (Z.eq_dec q p) as [->|?N]; [rewrite gp_p in *|rewrite (gp_other q) in * by assumption].

(* a message p has just processed came from a Byzantine party or was in the network *)
Lemma offer_sent : forall l m, offer = Some (l, m) -> 0 <= l < n /\ (byz l = true \/ sent g l p (mtag m) (m_act m) (m_pay m)).
Proof. intros l m Eo. destruct (can_recv_spec g p l m (CR l m Eo)) as (R & [Y|I]); split; auto. right. exists m. auto. Qed.

(* the counter after the step, justified by messages that were in the network BEFORE the step *)
Lemma count_old : forall cnt k a, count_ok cnt k a g -> counts cnt k a (gp g p) st' offer ->
  forall tg d, counted g st' p k a tg d (cnt st' tg d).
Proof.
  intros cnt k a CO C tg d. destruct Q as (Fm & _). destruct (CO p tg d) as (L & ND & Len & AF & AL).
  destruct (C tg d) as [E|(l & m & Eo & -> & -> & <- & F0 & E & F1)].
  - exists L. rewrite E. split; [exact ND|]. split; [exact Len|]. split; [|exact AL]. intros l I. apply Fm. auto.
  - exists (l :: L). split; [|split; [|split]].
    + constructor; auto. intros I. apply AF in I. congruence.
    + cbn [length]. lia.
    + intros l0 [<-|I]; auto.
    + intros l0 [<-|I]; auto. apply offer_sent. exact Eo.
Qed.

Lemma count_step : forall cnt k a, count_ok cnt k a g -> counts cnt k a (gp g p) st' offer -> count_ok cnt k a g'.
Proof. intros cnt k a CO C q tg d. apply (counted_mono g g' up). party q; [apply count_old; auto|apply CO]. Qed.

Lemma cnt_mono : forall cnt k a, counts cnt k a (gp g p) st' offer -> forall q tg d, cnt (gp g q) tg d <= cnt (gp g' q) tg d.
Proof. intros cnt k a C q tg d. party q; [|lia]. destruct (C tg d) as [E|(? & ? & _ & _ & _ & _ & _ & E & _)]; lia. Qed.

Lemma echo_after_rsend_step : echo_after_rsend g -> echo_after_rsend g'.
Proof.
  intros IH q dst x I A. destruct Q as (Fm & _ & _ & _ & S).
  apply sent_new in I. destruct I as [I|[-> I]].
  - party q; [apply Fm|]; eapply IH; eauto.
  - rewrite gp_p. destruct (S _ _ I) as [S2 _]. destruct (S2 A) as (l & m & _ & T & _ & J & _ & F & _).
    rewrite T, (mtag_j _ _ _ _ T), J. exact F.
Qed.

Lemma UQ_step : forall a,
  (forall d x d' x', In (p, d, x) (gsent g) -> m_act x = a -> In (d', x') out -> m_act x' = a -> mtag x = mtag x' -> False) ->
  (forall d1 x1 d2 x2, In (d1, x1) out -> In (d2, x2) out -> m_act x1 = a -> m_act x2 = a -> m_pay x1 = m_pay x2) ->
  UQ a g -> UQ a g'.
Proof.
  intros a ON NN IH q d1 x1 d2 x2 I1 I2 A1 A2 T.
  apply sent_new in I1. apply sent_new in I2. destruct I1 as [I1|[E1 I1]], I2 as [I2|[E2 I2]]; try subst q.
  - eapply IH; eauto.
  - elim (ON _ _ _ _ I1 A1 I2 A2 T).
  - elim (ON _ _ _ _ I2 A2 I1 A1 (eq_sym T)).
  - eapply NN; eauto.
Qed.

Lemma echo_unique_step : echo_after_rsend g -> UQ 2 g -> UQ 2 g'.
Proof.
  intros IHa. destruct Q as (_ & _ & _ & _ & S). apply UQ_step.
  - (* a new echo is the first one of p for its tag: the FSend filter was not set *)
    intros d x d' x' I A I' A' T'. destruct (S _ _ I') as [S2 _]. destruct (S2 A') as (l & m & _ & T2 & _ & J & F & _).
    pose proof (IHa _ _ _ I A) as X. rewrite T', T2, (mtag_j _ _ _ _ T'), (mtag_j _ _ _ _ T2), J in X. congruence.
  - intros d1 x1 d2 x2 I1 I2 A1 A2. destruct (S _ _ I1) as [S1 _]. destruct (S1 A1) as (l & m & Eo & _ & _ & _ & _ & _ & P1).
    destruct (S _ _ I2) as [S2 _]. destruct (S2 A2) as (l' & m' & Eo' & _ & _ & _ & _ & _ & P2).
    rewrite Eo in Eo'. inversion Eo'; subst. congruence.
Qed.

Lemma echo_has_rsend_step : echo_has_rsend g -> echo_has_rsend g'.
Proof.
  intros IH q dst x I A. destruct Q as (_ & _ & _ & _ & S).
  apply sent_new in I. destruct I as [I|[-> I]].
  - destruct (IH _ _ _ I A) as (m & T & A1 & P & M). exists m. repeat split; auto. destruct M; auto using up.
  - destruct (S _ _ I) as [S2 _]. destruct (S2 A) as (l & m & Eo & T & A1 & J & _ & _ & P).
    exists m. repeat split; auto. rewrite (mtag_j _ _ _ _ T), J.
    destruct (can_recv_spec g p l m (CR l m Eo)) as (_ & [M|M]); auto using up.
Qed.

Lemma ready_has_echo_quorum_step : count_ok rd FReady 3 g -> ready_has_echo_quorum g -> ready_has_echo_quorum g'.
Proof.
  intros C2 IH q dst x I A. pose proof Q as (_ & Ce & Cr & _ & S).
  assert (OLD : forall q0 d0 x0, In (q0, d0, x0) (gsent g) -> m_act x0 = 3 ->
                exists q', hon q' /\ n - t <= ed (gp g' q') (mtag x0) (m_pay x0)).
  { intros q0 d0 x0 I0 A0. destruct (IH _ _ _ I0 A0) as (q' & Hq & E). exists q'. split; auto.
    pose proof (cnt_mono ed _ _ Ce q' (mtag x0) (m_pay x0)). lia. }
  apply sent_new in I. destruct I as [I|[-> I]]; [eapply OLD; eauto|].
  destruct (S _ _ I) as [_ S3]. destruct (S3 A) as [E|E].
  - exists p. rewrite gp_p. auto.
  - (* t+1 readys: one of them is from an honest party, and was in the network before *)
    destruct (quorum_honest _ _ (counted_quorum _ _ _ _ _ _ _ _ (count_old rd _ _ C2 Cr (mtag x) (m_pay x))))
      as (l0 & _ & m' & Im & Tm & Am & Pm); [lia|].
    rewrite <- Tm, <- Pm. eapply OLD; eauto.
Qed.

Lemma dbar_needs_2t1_step : dbar_needs_2t1 g -> dbar_needs_2t1 g'.
Proof.
  intros IH q tg d D. pose proof Q as (_ & _ & Cr & Db & _). pose proof (cnt_mono rd _ _ Cr q tg d) as M.
  party q; [|apply IH; exact D].
  destruct (Db tg) as [X|(_ & d' & X & Y)]; rewrite X in D; [apply IH in D; lia|inversion D; subst; lia].
Qed.

Lemma INV_onestep : INV g -> INV g'.
Proof.
  intros [C1 C2 A3a A3 A4 A5 A7]. pose proof Q as (_ & Ce & Cr & _).
  constructor; [apply count_step|apply count_step|apply echo_after_rsend_step|apply echo_unique_step|apply echo_has_rsend_step|apply ready_has_echo_quorum_step|apply dbar_needs_2t1_step]; auto.
Qed.

Hypothesis Q2 : pstep2 (gp g p) st' out r offer.
Hypothesis Ig : INV g.
Lemma Ig' : INV g'.
Proof. exact (INV_onestep Ig). Qed.

Lemma ldeliver_received_step : ldeliver_received g -> ldeliver_received g'.
Proof.
  intros IH q k tg F.
  assert (OLD : forall q0, filt (gp g q0) FDeliver k tg = true ->
                0 <= k < n /\ (byz k = true \/ sent g' k q0 tg 7 (rbuf (gp g q0) tg k))).
  { intros q0 F0. destruct (IH _ _ _ F0) as (R & [Y|S]); auto using (sent_mono g g' up). }
  party q; [|auto]. destruct (p2_fdeliver Q2 k tg F) as [[F0 ->]|(m & Eo & <- & <- & ->)]; [auto|].
  destruct (offer_sent k m Eo) as (R & [Y|S]); auto using (sent_mono g g' up).
Qed.

Lemma backed_mono : forall q tg d, echoed g q tg d \/ Sup g tg d -> echoed g' q tg d \/ Sup g' tg d.
Proof. intros q tg d [E|S]; [left; apply (echoed_mono g g' up)|right; apply (Sup_mono g g' up)]; auto. Qed.

Lemma lanswer_backed_step : payload_backed g -> lanswer_backed g -> lanswer_backed g'.
Proof.
  intros Th IH q dst m I A. apply sent_new in I. destruct I as [I|[-> I]]; apply backed_mono; [eauto|].
  eauto using (p2_answer Q2).
Qed.

(* the payload of a tag after the step is the one before, or is backed by an echo of p or a quorum *)
Lemma new_mbar_backed : ldeliver_received g' -> lanswer_backed g' -> forall tg x, mbar st' tg = Some x ->
  mbar (gp g p) tg = Some x \/ (mbar (gp g p) tg = None /\ echoed g' p tg (H x)) \/ Sup g' tg (H x).
Proof.
  intros Rh Om tg x M. destruct (p2_mbar Q2 tg) as [E|(x' & E & C)]; [left; congruence|right].
  rewrite M in E. inversion E; subst x'. destruct C as [(N & id & j & s & -> & A)|[D|LA]].
  - left. split; auto. exists p, (Msg id j s 2 (H x)). split; [|repeat split].
    apply out_sent. apply A. apply range_in. apply hon_range. exact Hp.
  - right. apply (dbar_Sup g' Ig' p). rewrite gp_p. exact D.
  - right. apply (laccept_Sup g' Rh Om p). rewrite gp_p. exact LA.
Qed.

Lemma payload_backed_step : ldeliver_received g' -> lanswer_backed g' -> payload_backed g -> payload_backed g'.
Proof.
  intros Rh Om IH q tg x M. party q; [|apply backed_mono; auto].
  destruct (new_mbar_backed Rh Om tg x M) as [Y|[[_ X]|X]]; auto. apply backed_mono. auto.
Qed.

Lemma mbar_keep : forall tg, mbar (gp g p) tg <> None -> mbar st' tg <> None.
Proof. intros tg N. destruct (p2_mbar Q2 tg) as [E|(x & E & _)]; congruence. Qed.

Lemma dbuf_carry : ldeliver_received g' -> lanswer_backed g' -> dbuf_supported g -> forall tg, In tg (dbuf (gp g p)) ->
  exists x, mbar st' tg = Some x /\ Sup g' tg (H x).
Proof.
  intros Rh Om IH tg I. destruct (IH _ _ I) as (x & M & S). apply (Sup_mono g g' up) in S.
  destruct (mbar st' tg) as [x'|] eqn:M'.
  - exists x'. split; auto. destruct (new_mbar_backed Rh Om tg x' M') as [Y|[[N _]|X]]; [|congruence|exact X].
    rewrite Y in M. injection M as ->. exact S.
  - elim (mbar_keep tg); congruence.
Qed.

(* a tag validated at p by this step *)
Lemma svalid_new : ldeliver_received g' -> lanswer_backed g' -> forall tg, svalid st' tg -> exists x, mbar st' tg = Some x /\ Sup g' tg (H x).
Proof.
  intros Rh Om tg V. destruct (svalid_Sup g' Ig' Rh Om p tg) as (x & M & S); [rewrite gp_p; exact V|]. rewrite gp_p in M. eauto.
Qed.

Lemma dbuf_supported_step : ldeliver_received g' -> lanswer_backed g' -> dbuf_supported g -> dbuf_supported g'.
Proof.
  intros Rh Om IH q tg I. party q.
  - destruct (p2_dbuf Q2 tg I); [apply dbuf_carry|apply svalid_new]; auto.
  - destruct (IH _ _ I) as (x & M & S). exists x. split; auto. apply (Sup_mono g g' up). exact S.
Qed.

Lemma log_supported_step : ldeliver_received g' -> lanswer_backed g' -> dbuf_supported g -> log_supported g -> log_supported g'.
Proof.
  intros Rh Om IHa IH q tg v I. apply log_new in I. destruct I as [I|(-> & who & Er)].
  - apply (Sup_mono g g' up). eapply IH; eauto.
  - destruct (p2_delivered Q2 Er) as (M & [V|V]).
    + destruct (svalid_new Rh Om tg V) as (x & M' & S). congruence.
    + destruct (dbuf_carry Rh Om IHa tg V) as (x & M' & S). congruence.
Qed.

Lemma INV2_onestep : INV2 g -> INV2 g'.
Proof.
  intros [Th Om Rh A8a A8b].
  assert (Rh' : ldeliver_received g') by (apply ldeliver_received_step; auto). assert (Om' : lanswer_backed g') by (apply lanswer_backed_step; auto).
  constructor; [apply payload_backed_step|exact Om'|exact Rh'|apply dbuf_supported_step|apply log_supported_step]; auto.
Qed.

Hypothesis Q3 : pstep3 (gp g p) st' out offer.
Hypothesis Q4 : pstep4 (gp g p) st' out r offer.

(* X stands for what else the clause of the kind says (p4_fecho, p3_fready, p4_frequest have different tails) *)
Lemma filter_src_step : forall a (X : Z -> tagT -> msg -> Prop),
  (forall k tg, filt (gp g p) (kind_of a) k tg = false -> filt st' (kind_of a) k tg = true ->
     exists m, offer = Some (k, m) /\ tg = mtag m /\ m_act m = a /\ X k tg m) -> filter_src a g -> filter_src a g'.
Proof.
  intros a X Fc IH q l tg F.
  assert (OLD : forall q0, filt (gp g q0) (kind_of a) l tg = true -> byz l = true \/ exists d, sent g' l q0 tg a d).
  { intros q0 F0. destruct (IH _ _ _ F0) as [Y|(d & S)]; eauto using (sent_mono g g' up). }
  party q; [|auto]. destruct (filt (gp g p) (kind_of a) l tg) eqn:F0; [auto|].
  destruct (Fc _ _ F0 F) as (m & Eo & -> & <- & _). destruct (offer_sent l m Eo) as (_ & [Y|S]); eauto using (sent_mono g g' up).
Qed.

Lemma sent_to_all_step : forall a,
  (forall dst x, In (dst, x) out -> m_act x = a -> forall i, In i (range n) -> In (i, x) out) -> sent_to_all a g -> sent_to_all a g'.
Proof.
  intros a Al IH l dst x I A i Ri. apply sent_new in I. destruct I as [I|[-> I]].
  - apply up. eapply IH; eauto.
  - apply out_sent. eapply Al; eauto. apply range_in. exact Ri.
Qed.

Lemma ready_rule_fired_step : ready_rule_fired g -> ready_rule_fired g'.
Proof.
  intros IH q tg d C. pose proof Q as (_ & _ & Cr & _).
  assert (OLD : forall q0, rcond (gp g q0) tg d -> (exists dst, sent g' q0 dst tg 3 d) \/ (t = 0 /\ 1 <= rd (gp g' q0) tg d)).
  { intros q0 C0. destruct (IH _ _ _ C0) as [(dst & S)|[T0 R]]; [left; exists dst; apply (sent_mono g g' up); exact S|right].
    pose proof (cnt_mono rd _ _ Cr q0 tg d). lia. }
  assert (NEW : (exists dst x, In (dst, x) out /\ mtag x = tg /\ m_act x = 3 /\ m_pay x = d) -> exists dst, sent g' p dst tg 3 d).
  { intros (dst & x & I & E). exists dst, x. split; [apply out_sent|]; auto. }
  destruct (Z.eq_dec q p) as [->|N]; [|rewrite (gp_other q N) in C; auto]. rewrite gp_p in C.
  destruct (Z_lt_le_dec 0 t) as [T0|T0].
  - destruct (p3_ready_rule Q3 T0 C) as [C0|X]; auto.
  - destruct C as [C|C]; [right; rewrite gp_p; lia|]. destruct (p3_echo_rule Q3 tg d C) as [C0|[X|C0]]; auto.
    + apply OLD. right. exact C0.
    + right. rewrite gp_p. lia.
Qed.

Lemma dbar_at_2t1_step : dbar_at_2t1 g -> dbar_at_2t1 g'.
Proof.
  intros IH q tg d C. party q; [|eapply IH; eauto].
  destruct (p3_dbar_rule Q3 tg d C) as [C0|X]; auto. apply IH in C0.
  destruct Q as (_ & _ & _ & Db & _). destruct (Db tg) as [E|[E _]]; congruence.
Qed.

Lemma complete_step : forall cnt a, counts cnt (kind_of a) a (gp g p) st' offer ->
  (forall k tg, filt (gp g p) (kind_of a) k tg = false -> filt st' (kind_of a) k tg = true ->
     exists m, offer = Some (k, m) /\ tg = mtag m /\ m_act m = a /\
               (toolong tg (m_pay m) = true \/ cnt st' tg (m_pay m) = cnt (gp g p) tg (m_pay m) + 1)) ->
  UQ a g' -> filter_src a g -> complete cnt a g -> complete cnt a g'.
Proof.
  intros cnt a Cc Fc Uq I0 IH q tg d TL. destruct Q as (Fm & _).
  (* a peer whose filter was set before sent one digest per tag, and sent it before the step *)
  assert (KEEP : forall q0 l, filt (gp g q0) (kind_of a) l tg = true -> byz l = false -> sent g' l q0 tg a d -> sent g l q0 tg a d).
  { intros q0 l F0 Nb (m & Im & Tm & Am & Pm). destruct (I0 _ _ _ F0) as [Y|(d0 & m0 & I0m & T0m & A0m & P0m)]; [congruence|].
    exists m0. repeat split; auto. rewrite <- Pm. eapply Uq; eauto using up. congruence. }
  destruct (IH q tg d TL) as (L & ND & Len & AF & AC). party q; [|exists L; auto 7].
  destruct (Cc tg d) as [Er|(l & m & Eo & -> & -> & <- & F0 & Er & F1)].
  - exists L. split; [exact ND|]. split; [congruence|]. split; [auto|].
    intros l F Nb S. destruct (filt (gp g p) (kind_of a) l tg) eqn:F0; [auto|]. exfalso.
    destruct (Fc _ _ F0 F) as (m & Eo & -> & <- & C). destruct (offer_sent l m Eo) as (_ & [Y|(m1 & Im1 & T1 & A1 & P1)]); [congruence|].
    destruct S as (m2 & Im2 & Tm2 & Am2 & <-).
    assert (Pd : m_pay m = m_pay m2). { rewrite <- P1. eapply Uq; eauto using up. congruence. }
    rewrite Pd in C. destruct C as [C|C]; [congruence|lia].
  - exists (l :: L). split; [|split; [|split]].
    + constructor; auto. intros I. apply AF in I. congruence.
    + cbn [length]. lia.
    + intros l0 [<-|I]; auto.
    + intros l0 F Nb S. destruct (filt (gp g p) (kind_of (m_act m)) l0 (mtag m)) eqn:F00; [right; auto|].
      destruct (Fc _ _ F00 F) as (m' & Eo' & _). rewrite Eo in Eo'. inversion Eo'. left. auto.
Qed.

Lemma INV3_onestep : INV3 g -> INV3 g'.
Proof.
  intros [Fe Fr Fq Se Sr Rr D2 Ce Cr]. pose proof Q as (_ & Qe & Qr & _). pose proof (INV_echo_unique Ig') as Ue.
  constructor.
  - apply (filter_src_step 2 _ (p4_fecho Q4) Fe).
  - apply (filter_src_step 3 _ (p3_fready Q3) Fr).
  - apply (filter_src_step 4 _ (p4_frequest Q4) Fq).
  - apply sent_to_all_step; auto. intros dst x I A. apply (p4_echo_all Q4 _ _ I A).
  - apply sent_to_all_step; auto. apply (p3_ready_all Q3).
  - apply ready_rule_fired_step; auto.
  - apply dbar_at_2t1_step; auto.
  - apply (complete_step ed 2); auto. apply (p4_fecho Q4).
  - apply (complete_step rd 3); auto; [apply (p3_fready Q3)|apply (ready_digest_unique g' Ig')].
Qed.

Hypothesis Hskip : skip = 0.
Hypothesis H_inj : forall a b, H a = H b -> a = b.
Variable e : event.
Hypothesis Src : rsend_src e p (gp g p) st' out.
Hypothesis NSe : noswitch e = true.
Hypothesis OC : onchan (gp g p) st' r.
Hypothesis NSg : on_root g.

Lemma on_root_step : on_root g'.
Proof. intros q. party q; [|apply NSg]. destruct OC as (C & F & _). destruct (NSg p). split; congruence. Qed.

(* either no r-send goes out and the sequence counter stays, or the party broadcasts with the next sequence number *)
Lemma bcast_cases : (sq st' = sq (gp g p) /\ no_rsend out) \/
  (exists v, out = to_all n (Msg 0 p (sq st') 1 v) /\ sq st' = sq (gp g p) + 1).
Proof.
  destruct Src as [[N S]|(v & coin & _ & E)]; [left; auto|right]. unfold broadcast in E. injection E as <- <-.
  destruct (NSg p) as [-> ->]. exists v. auto.
Qed.

(* what a step does to the delivery counters (fifo_skip = 0) *)
Lemma dls_step : (r = RNone \/ r = RThrow) /\ dls st' = dls (gp g p) \/
  exists who s v, r = RDeliver who (0, who, s) v /\ s = dls (gp g p) who /\ dls st' = updZ (dls (gp g p)) who (s + 1).
Proof.
  destruct (NSg p) as [C F]. destruct OC as (_ & _ & DR). unfold deliver_res_ok in DR. destruct r as [|who tg v|]; [left; auto| |left; auto].
  right. destruct DR as ((s & -> & _ & S) & D). rewrite C. exists who, s, v.
  split; [reflexivity|]. split; [apply S; auto|]. rewrite (D Hskip). rewrite <- (S F Hskip). reflexivity.
Qed.

Lemma dls_mono : forall w, dls (gp g p) w <= dls st' w.
Proof.
  intros w. destruct dls_step as [[_ D]|(who & s0 & v0 & _ & -> & D)]; rewrite D; [lia|].
  unfold updZ. destruct (w =? who) eqn:X; b2p; subst; lia.
Qed.

Lemma log_mono : forall x, In x (glog g) -> In x (glog g').
Proof. intros x I. rewrite Elog. apply in_or_app. auto. Qed.

Lemma log_counter_step : log_counter g -> log_counter g'.
Proof.
  intros (A & Bq & C). split; [|split].
  - intros q id w s v I. apply log_new in I. destruct I as [I|(-> & who & Er)].
    + destruct (A _ _ _ _ _ I) as (-> & R). split; auto. party q; auto. pose proof (dls_mono w). lia.
    + destruct dls_step as [[[D|D] _]|(who' & s0 & v0 & Er' & -> & D)]; try congruence.
      rewrite Er in Er'. inversion Er'; subst. split; auto. rewrite gp_p, D, updZ_same. pose proof (C p who'). lia.
  - intros q w s R.
    assert (OLD : 1 <= s < dls (gp g q) w -> exists v, In (q, (0, w, s), v) (glog g')).
    { intros R0. destruct (Bq _ _ _ R0) as (v & I). exists v. apply log_mono. exact I. }
    party q; auto. destruct dls_step as [[_ D]|(who & s0 & v0 & Er & -> & D)]; rewrite D in R; auto.
    unfold updZ in R. destruct (w =? who) eqn:X; b2p; auto. subst w.
    destruct (Z.eq_dec s (dls (gp g p) who)) as [->|NE]; [|apply OLD; lia].
    exists v0. rewrite Elog, Er. apply in_or_app. right. cbn. auto.
  - intros q w. party q; auto. pose proof (dls_mono w). pose proof (C p w). lia.
Qed.

Lemma echo_has_payload_step : echo_has_payload g -> echo_has_payload g'.
Proof.
  intros IH q dst x I A. apply sent_new in I. destruct I as [I|[-> I]].
  - party q; [apply mbar_keep|]; eapply IH; eauto.
  - rewrite gp_p. destruct (p4_echo_all Q4 _ _ I A) as (_ & v & M & _). congruence.
Qed.

Lemma rsend_numbered_step : rsend_to_all g -> rsend_numbered g -> rsend_numbered g'.
Proof.
  intros A2 IH j dst m I A. apply sent_new in I. destruct I as [I|[-> I]].
  - destruct (IH _ _ _ I A) as (E1 & E2 & E3). repeat split; auto; try lia.
    party j; [|lia]. destruct bcast_cases as [[S _]|(v & _ & S)]; lia.
  - rewrite gp_p. destruct bcast_cases as [[_ S]|(v & -> & S)]; [elim (S _ _ I A)|].
    apply in_to_all in I. subst m. cbn. destruct (A2 p) as [P0 _]. repeat split; auto; lia.
Qed.

Lemma rsend_unique_step : rsend_numbered g -> UQ 1 g -> UQ 1 g'.
Proof.
  intros A0. apply UQ_step.
  - (* a new r-send carries a sequence number above those of the old ones *)
    intros d mo d' mn Io Ao In_ An Tn. destruct (A0 _ _ _ Io Ao) as (_ & _ & S).
    destruct bcast_cases as [[_ X]|(v & -> & X)]; [eapply X; eauto|].
    apply in_to_all in In_. subst mn. unfold mtag in Tn. cbn in Tn. inversion Tn. lia.
  - intros d1 m1 d2 m2 I1 I2 A1 A2. destruct bcast_cases as [[_ X]|(v & -> & X)]; [elim (X _ _ I1 A1)|].
    apply in_to_all in I1. apply in_to_all in I2. congruence.
Qed.

Lemma rsend_to_all_step : rsend_to_all g -> rsend_to_all g'.
Proof.
  intros IH j. destruct (IH j) as [P0 Al].
  assert (OLD : forall s, 1 <= s <= sq (gp g j) -> exists v, forall i, 0 <= i < n -> In (j, i, Msg 0 j s 1 v) (gsent g')).
  { intros s R. destruct (Al s R) as (v & Av). exists v. intros i Ri. apply up. auto. }
  party j; [|auto]. destruct bcast_cases as [[S _]|(v & Eo & S)]; rewrite S; [auto|]. split; [lia|]. intros s R.
  destruct (Z.eq_dec s (sq (gp g p) + 1)) as [->|NE]; [|apply OLD; lia].
  exists v. intros i Ri. apply out_sent. rewrite Eo, S. apply in_map_iff. exists i. split; auto. apply range_in. exact Ri.
Qed.

Lemma INV4a_onestep : INV4a g -> INV4a g'.
Proof.
  intros [_ Lc Ep Rn Ru Ra].
  constructor; [apply on_root_step|apply log_counter_step|apply echo_has_payload_step|apply rsend_numbered_step|apply rsend_unique_step
               |apply rsend_to_all_step]; auto.
Qed.

Hypothesis I2g : INV2 g.
Hypothesis I3g : INV3 g.
Hypothesis I4g : INV4a g.
Lemma I2g' : INV2 g'.
Proof. exact (INV2_onestep I2g). Qed.

Lemma rsend_echoed_step : rsend_echoed g -> rsend_echoed g'.
Proof.
  intros IH q k id s F Nb. pose proof (INV4a_rsend_unique (INV4a_onestep I4g)) as A1'. pose proof (INV4a_rsend_unique I4g) as A1.
  assert (OLD : forall q0, filt (gp g q0) FSend k (id, k, s) = true ->
            exists v, (exists dst, sent g' k dst (id, k, s) 1 v) /\ mbar (gp g q0) (id, k, s) = Some v /\ echoed g' q0 (id, k, s) (H v)).
  { intros q0 F0. destruct (IH _ _ _ _ F0 Nb) as (v & (dst & S) & M & E).
    exists v. split; [exists dst; apply (sent_mono g g' up); exact S|]. split; auto. apply (echoed_mono g g' up). exact E. }
  party q; [|apply OLD; exact F].
  destruct (filt (gp g p) FSend k (id, k, s)) eqn:F0.
  - destruct (OLD p F0) as (v & (dst & m & Im & Tm & Am & Pm) & M & Ec).
    exists v. split; [exists dst, m; auto|]. split; auto.
    destruct (mbar st' (id, k, s)) as [x'|] eqn:M'; [|elim (mbar_keep (id, k, s)); congruence].
    (* a payload that replaces a stored one is supported *)
    destruct (new_mbar_backed (INV2_ldeliver_received I2g') (INV2_lanswer_backed I2g') _ x' M') as [Y|[[N _]|S]]; [congruence|congruence|].
    pose proof (Sup_send_digest g' Ig' A1' k id s _ S Nb dst m Im Am Tm) as X. apply H_inj in X. congruence.
  - destruct (p4_fsend Q4 _ _ F0 F) as (m & Eo & Tm & Am & C).
    destruct (can_recv_spec g p k m (CR k m Eo)) as (_ & [Y|Im]); [congruence|].
    destruct C as [C|[(x & Mx & NE)|(Al & M')]].
    + elim C. unfold mtag in Tm. inversion Tm. reflexivity.
    + exfalso. pose proof (INV2_payload_backed I2g) as Th. destruct (Th _ _ _ Mx) as [Ec|S].
      * destruct Ec as (dst & x0 & Ie & Te & Ae & _). pose proof (INV_echo_after_rsend Ig _ _ _ Ie Ae) as X. rewrite Te in X.
        rewrite (mtag_j _ _ _ _ Te) in X. congruence.
      * pose proof (Sup_send_digest g Ig A1 k id s _ S Nb p m Im Am (eq_sym Tm)) as X. apply H_inj in X. congruence.
    + exists (m_pay m). split; [exists p, m; auto using up|]. split; auto.
      exists p, (Msg (m_id m) (m_j m) (m_s m) 2 (H (m_pay m))). split; [|repeat split; auto].
      apply out_sent. apply Al. apply range_in. apply hon_range. exact Hp.
Qed.

Lemma dbar_stable : forall tg d, dbar (gp g p) tg = Some d -> dbar st' tg = Some d.
Proof. intros tg d D. destruct Q as (_ & _ & _ & Db & _). destruct (Db tg) as [E|[E _]]; congruence. Qed.

Lemma request_has_dbar_step : request_has_dbar g -> request_has_dbar g'.
Proof.
  intros IH q dst x I A. apply sent_new in I. destruct I as [I|[-> I]].
  - party q; [apply dbar_stable|]; eapply IH; eauto.
  - rewrite gp_p. apply (p4_request Q4 _ _ I A).
Qed.

(* no request of p for tg is in the network while p has not fixed the digest; hence nobody has processed one *)
Lemma no_request_yet : request_has_dbar g -> forall tg, dbar (gp g p) tg = None -> forall l, filt (gp g' l) FRequest p tg = true -> False.
Proof.
  intros Ra tg D0 l F. pose proof (INV3_request_src I3g) as F4.
  assert (OLD : forall l0, byz p = true \/ (exists d, sent g p l0 tg 4 d) -> False).
  { intros l0 [Y|(d & m & I & Tm & Am & _)]; [rewrite (hon_byz p Hp) in Y; discriminate|].
    pose proof (Ra _ _ _ I Am) as X. rewrite Tm in X. congruence. }
  party l; [|apply (OLD l); apply F4; exact F].
  destruct (filt (gp g p) FRequest p tg) eqn:F0; [apply (OLD p); apply F4; exact F0|].
  destruct (p4_frequest Q4 _ _ F0 F) as (m & Eo & -> & Am & _).
  apply (OLD p). destruct (offer_sent p m Eo) as (_ & [Y|S]); [auto|right]. rewrite Am in S. eauto.
Qed.

Lemma request_quorum_step : request_has_dbar g -> request_quorum g -> request_quorum g'.
Proof.
  intros Ra IH q dst x I A. apply sent_new in I. destruct I as [I|[-> I]].
  - apply (quorum_mono (n - t) _ _ _ (Z.le_refl _)) with (2 := IH _ _ _ I A). intros l (Ec & An).
    split; [apply (echoed_mono g g' up); exact Ec|]. intros F.
    assert (OLD : filt (gp g l) FRequest q (mtag x) = true -> exists a, In (l, q, a) (gsent g') /\ m_act a = 5 /\ mtag a = mtag x).
    { intros F0. destruct (An F0) as (a & Ia & Ea). exists a. auto using up. }
    party l; [|auto]. destruct (filt (gp g p) FRequest q (mtag x)) eqn:F0; [auto|].
    destruct (p4_frequest Q4 _ _ F0 F) as (m & Eo & Tm & Am & [C|(v & Mv & Iv)]).
    + exfalso. destruct Ec as (d0 & x0 & Ie & Te & Ae & _).
      pose proof (INV4a_echo_has_payload I4g _ _ _ Ie Ae) as X. rewrite Te in X. congruence.
    + exists (Msg (m_id m) (m_j m) (m_s m) 5 v). split; [apply out_sent; exact Iv|]. rewrite Tm. auto.
  - destruct (p4_request Q4 _ _ I A) as (D1 & D0 & Rd).
    assert (DN : dbar (gp g p) (mtag x) = None).
    { destruct D0 as [D0|D0]; auto. exfalso. apply (INV_dbar_needs_2t1 Ig) in D0. lia. }
    apply (quorum_mono (n - t) _ _ _ (Z.le_refl _)) with (2 := dbar_Sup g' Ig' p _ _ ltac:(rewrite gp_p; exact D1)).
    intros l Ec. split; auto. intros F. elim (no_request_yet Ra _ DN l F).
Qed.

Lemma ranswer_backed_step : ranswer_backed g -> ranswer_backed g'.
Proof.
  intros IH l q a I A. apply sent_new in I. destruct I as [I|[-> I]].
  - destruct (IH _ _ _ I A) as (R & S). split; [|apply backed_mono; exact S].
    destruct R as [Y|(m & Im & E)]; auto. right. exists m. auto using up.
  - destruct (p4_answer Q4 _ _ I A) as (m & Eo & Am & Tm & Mv). split.
    + destruct (can_recv_spec g p q m (CR q m Eo)) as (_ & [Y|Im]); auto. right. exists m. auto using up.
    + apply backed_mono. apply (INV2_payload_backed I2g). exact Mv.
Qed.

Lemma obsolete_stable : forall tg, obsolete (gp g p) tg = true -> obsolete st' tg = true.
Proof.
  intros [[id who] s] O. destruct OC as (Ecur & Efifo & _). unfold obsolete in *. rewrite Ecur, Efifo. b2p.
  rewrite H0, H2, Z.eqb_refl. cbn. apply Z.ltb_lt. pose proof (dls_mono who). lia.
Qed.

Lemma TD_stable : forall q tg, TD g q tg -> TD g' q tg.
Proof.
  intros q tg T. unfold TD in *. destruct T as [(v & I)|[I|O]].
  - left. exists v. apply log_mono. exact I.
  - party q; [|right; left; exact I].
    destruct (p4_dbuf Q4 tg I) as [J|[(who & v & Er)|O]].
    + right. left. exact J.
    + left. exists v. rewrite Elog, Er. apply in_or_app. right. cbn. auto.
    + right. right. apply obsolete_stable. exact O.
  - right. right. party q; auto. apply obsolete_stable. exact O.
Qed.

Lemma tried_TD : forall tg, tried st' r tg -> TD g' p tg.
Proof.
  intros tg [(who & v & Er)|I].
  - left. exists v. rewrite Elog, Er. apply in_or_app. right. cbn. auto.
  - right. left. rewrite gp_p. exact I.
Qed.

Lemma answer_tried_step : request_has_dbar g -> ranswer_backed g -> answer_tried g -> answer_tried g'.
Proof.
  intros Ra A10 IH q l tg F Nb.
  assert (OLD : forall q0, filt (gp g q0) FAnswer l tg = true ->
                TD g' q0 tg \/ exists a db, In (l, q0, a) (gsent g') /\ m_act a = 5 /\ mtag a = tg /\ dbar (gp g q0) tg = Some db /\ db <> H (m_pay a)).
  { intros q0 F0. destruct (IH _ _ _ F0 Nb) as [T|(a & db & Ia & E)]; [left; apply TD_stable; exact T|].
    right. exists a, db. auto using up. }
  party q; [|auto]. destruct (filt (gp g p) FAnswer l tg) eqn:F0.
  - destruct (OLD p F0) as [T|(a & db & Ia & Aa & Ta & D & NE)]; [left; exact T|].
    right. exists a, db. repeat split; auto. apply dbar_stable. exact D.
  - destruct (p4_fanswer Q4 _ _ F0 F) as (m & Eo & Tm & Am & C).
    destruct (can_recv_spec g p l m (CR l m Eo)) as (_ & [Y|Im]); [congruence|].
    destruct C as [C|[(db & D & NE)|T]].
    + exfalso. destruct (A10 _ _ _ Im Am) as ([Y|(m' & Im' & Am' & Tm')] & _); [rewrite (hon_byz p Hp) in Y; discriminate|].
      pose proof (Ra _ _ _ Im' Am') as X. rewrite Tm', <- Tm in X. congruence.
    + right. exists m, db. repeat split; auto using up. apply dbar_stable. exact D.
    + left. apply tried_TD. exact T.
Qed.

Lemma dbar_tried_step : dbar_tried g -> dbar_tried g'.
Proof.
  intros IH q tg D.
  assert (OLD : forall q0, dbar (gp g q0) tg <> None ->
                TD g' q0 tg \/ exists x, m_act x = 4 /\ mtag x = tg /\ forall i, 0 <= i <= 2 * t -> In (q0, i, x) (gsent g')).
  { intros q0 D0. destruct (IH _ _ D0) as [T|(x & Ax & Tx & Al)]; [left; apply TD_stable; exact T|].
    right. exists x. auto using up. }
  party q; [|auto]. destruct (dbar (gp g p) tg) as [d0|] eqn:D0; [apply OLD; congruence|].
  destruct (p4_dbar_new Q4 tg D0 D) as [(x & Ax & Tx & Al)|[T|(Er & DZ)]].
  - right. exists x. auto using out_sent.
  - left. apply tried_TD. exact T.
  - elim (dbar_nonzero g' Ig' p tg 0); [rewrite gp_p; exact DZ|reflexivity].
Qed.

Lemma has_dbar_mono : forall tg, has_dbar g tg -> has_dbar g' tg.
Proof. intros tg (q & d & D). exists q, d. party q; auto. apply dbar_stable. exact D. Qed.

Lemma delivery_has_dbar_step : delivery_has_dbar g -> delivery_has_dbar g'.
Proof.
  intros (Aa & Ab & Ac). destruct (INV4a_log_counter I4g) as (_ & DLb & _).
  assert (C' : forall l dst x, In (l, dst, x) (gsent g') -> m_act x = 7 -> m_id x = 0 -> has_dbar g' (mtag x)).
  { intros l dst x I A7 Id. apply has_dbar_mono. apply sent_new in I. destruct I as [I|[-> I]]; [eapply Ac; eauto|].
    destruct (NSg p) as [_ F]. pose proof (p4_ldeliver Q4 _ _ I A7 Hskip F) as LT.
    destruct (p4_wf Q4 _ _ I) as (_ & S1); [lia|lia|]. destruct (DLb p (m_j x) (m_s x)) as (v & Iv); [lia|].
    unfold mtag. rewrite Id. eapply Aa; eauto. }
  (* a tag validated at p in this step *)
  assert (SV : forall w s, svalid st' (0, w, s) -> has_dbar g' (0, w, s)).
  { intros w s [(d & D & _)|(x & M & (L & ND & Len & AL))].
    - exists p, d. rewrite gp_p. exact D.
    - destruct (nodup_exceeds_honest B L ND) as (l & J & NB); [lia|].
      destruct (AL l J) as (F & _).
      destruct (INV2_ldeliver_received I2g' p l (0, w, s)) as (_ & [Y|(m & Im & Tm & Am & _)]); [rewrite gp_p; exact F|elim NB; auto|].
      rewrite <- Tm. eapply C'; eauto. unfold mtag in Tm. inversion Tm. reflexivity. }
  split; [|split]; auto.
  - intros q w s v I. apply log_new in I. destruct I as [I|(-> & who & Er)]; [apply has_dbar_mono; eapply Aa; eauto|].
    destruct (p2_delivered Q2 Er) as (_ & [V|V]); auto.
    apply has_dbar_mono. eapply Ab; eauto.
  - intros q w s I. party q; [|apply has_dbar_mono; eapply Ab; eauto].
    destruct (p2_dbuf Q2 _ I) as [J|J]; auto. apply has_dbar_mono. eapply Ab; eauto.
Qed.

Lemma INV4b_onestep : INV4b g -> INV4b g'.
Proof.
  intros [Re Rd Rq Ab At Dt Dd].
  constructor; [apply rsend_echoed_step|apply request_has_dbar_step|apply request_quorum_step|apply ranswer_backed_step
               |apply answer_tried_step|apply dbar_tried_step|apply delivery_has_dbar_step]; auto.
Qed.
End OneStep.

Set Implicit Arguments.
Record ALL (g : gst) : Prop := { ALL_INV : INV g; ALL_INV2 : INV2 g; ALL_INV3 : INV3 g; ALL_INV4a : INV4a g; ALL_INV4b : INV4b g }.
Unset Implicit Arguments.

(* at the start nothing has been sent, logged, filtered or counted: every clause has a premise that is empty or false at
   ginit (membership in [], a filter that is true, a stored value, a counter above 0), or is an arithmetic fact about pinit *)
Ltac at_start :=
  repeat split; hnf; intros; unfold RbcStep3.rcond in *;
  cbn [ginit pinit gp gsent glog filt mbar dbar dbuf ed rd dls sq cur fifo] in *;
  first [reflexivity | discriminate | contradiction | lia | exfalso; lia].

Lemma ALL_init : ALL ginit.
Proof.
  assert (C : forall cnt k a, (forall tg d, cnt pinit tg d = 0) -> count_ok cnt k a ginit).
  { intros cnt k a Z0 p tg d. exists []. cbn. rewrite Z0. split; [constructor|]. split; [lia|]. split; intros l []. }
  assert (C' : forall cnt a, (forall tg d, cnt pinit tg d = 0) -> complete cnt a ginit).
  { intros cnt a Z0 q tg d _. exists []. cbn. rewrite Z0. split; [constructor|]. split; [reflexivity|]. split; [intros l []|].
    intros l F. destruct (kind_of a); discriminate F. }
  constructor.
  - (* INV: the two counters by C *) constructor; try (apply C; reflexivity); at_start.
  - (* INV2 *) at_start.
  - (* INV3: the two complete counters by C' *) constructor; try (apply C'; reflexivity); at_start.
  - (* INV4a: root channel, dls = 1, sq = 0 *) at_start.
  - (* INV4b *) at_start.
Qed.

(* INV and INV3 need nothing about H; INV2 needs H_nonzero *)
Lemma INV_step : forall g e, INV g /\ INV3 g -> INV (gstep g e) /\ INV3 (gstep g e).
Proof.
  intros g e [I I3].
  destruct (gstep_cases g e) as [->|(p & st' & out & r & offer & Hp & CR & (Q & _ & Q3 & Q4) & _ & _ & Egp & Esent & _)]; [auto|].
  split; [eapply INV_onestep|eapply INV3_onestep]; eauto.
Qed.

Theorem INV_run : forall es, INV (run es) /\ INV3 (run es).
Proof.
  apply (grun_ind n t skip H toolong byz (fun g => INV g /\ INV3 g)); [|exact INV_step].
  exact (conj (ALL_INV ALL_init) (ALL_INV3 ALL_init)).
Qed.

Theorem INV2_run : forall es, (INV (run es) /\ INV3 (run es)) /\ INV2 (run es).
Proof.
  apply (grun_ind n t skip H toolong byz (fun g => (INV g /\ INV3 g) /\ INV2 g)).
  - destruct ALL_init as [I I2 I3 _ _]. auto.
  - intros g e [I I2]. split; [apply INV_step; exact I|]. destruct I as [I _].
    destruct (gstep_cases g e) as [->|(p & st' & out & r & offer & Hp & CR & (Q & Q2 & _) & _ & _ & Egp & Esent & Elog)]; [exact I2|].
    eapply INV2_onestep; eauto.
Qed.

Theorem dbar_agree_run : forall es p q tg d d',
  dbar (gp (run es) p) tg = Some d -> dbar (gp (run es) q) tg = Some d' -> d = d'.
Proof. intros es. apply dbar_agree. exact (proj1 (INV_run es)). Qed.

(* AGREEMENT, every slot: two honest deliveries of one slot carry values with the same digest *)
Theorem agreement_digest_full : forall es p q tg v v',
  In (p, tg, v) (glog (run es)) -> In (q, tg, v') (glog (run es)) -> H v = H v'.
Proof.
  intros es p q tg v v' I1 I2. destruct (INV2_run es) as [[I _] K]. pose proof (INV2_log_supported K) as A8b.
  eapply Sup_unique; eauto.
Qed.

(* INTEGRITY, every slot: a delivered slot of a non-faulty sender j was sent by j as r-send, with a value of the same digest *)
Theorem integrity_digest_full : forall es p id j s v,
  In (p, (id, j, s), v) (glog (run es)) -> byz j = false ->
  exists e m, In (j, e, m) (gsent (run es)) /\ mtag m = (id, j, s) /\ m_act m = 1 /\ H (m_pay m) = H v.
Proof.
  intros es p id j s v I1 Hj. destruct (INV2_run es) as [[I _] K]. pose proof (INV2_log_supported K) as A8b.
  destruct (Sup_send _ I _ _ (A8b _ _ _ I1)) as (e & m & Tm & Am & Pm & M).
  rewrite (mtag_j _ _ _ _ Tm) in M. destruct M as [M|M]; [congruence|]. exists e, m. auto.
Qed.

(* the same for slots that did not come through the out-of-order handler *)
Theorem agreement_digest : forall es p q tg v v',
  In (p, tg, v) (glog (run es)) -> In (q, tg, v') (glog (run es)) ->
  ~ retrieved (gp (run es) p) tg -> ~ retrieved (gp (run es) q) tg -> H v = H v'.
Proof. intros es p q tg v v' I1 I2 _ _. exact (agreement_digest_full es p q tg v v' I1 I2). Qed.

Theorem integrity_digest : forall es p id j s v,
  In (p, (id, j, s), v) (glog (run es)) -> ~ retrieved (gp (run es) p) (id, j, s) -> byz j = false ->
  exists e m, In (j, e, m) (gsent (run es)) /\ mtag m = (id, j, s) /\ m_act m = 1 /\ H (m_pay m) = H v.
Proof. intros es p id j s v I1 _. exact (integrity_digest_full es p id j s v I1). Qed.

Lemma gstep_rsend : forall g e q dst m, In (q, dst, m) (gsent (gstep g e)) -> m_act m = 1 ->
  In (q, dst, m) (gsent g) \/
  exists v coin, e = EBcast q v coin /\ hon q /\ In (dst, m) (snd (broadcast n q (gp g q) v coin)).
Proof.
  intros g e q dst m I A.
  destruct (gstep_cases g e) as [E|(p & st' & out & r & offer & Hp & _ & _ & S & _ & _ & Es & _)]; [rewrite E in I; auto|].
  apply (sent_new g _ p out Es) in I. destruct I as [I|[-> I]]; auto.
  destruct S as [[N _]|(v & coin & -> & E)]; [elim (N _ _ I A)|]. right. exists v, coin. rewrite E. auto.
Qed.

Theorem rsend_only_by_broadcast : forall es j dst m, In (j, dst, m) (gsent (run es)) -> m_act m = 1 ->
  exists es1 v coin es2, es = es1 ++ EBcast j v coin :: es2 /\ hon j /\
                         In (dst, m) (snd (broadcast n j (gp (run es1) j) v coin)).
Proof.
  induction es as [|e es IH] using rev_ind; intros j dst m I A.
  - cbn in I. contradiction.
  - unfold grun in I. rewrite fold_left_app in I. cbn [fold_left] in I.
    apply gstep_rsend in I; auto. destruct I as [I|(v & coin & -> & Hj & I)].
    + destruct (IH _ _ _ I A) as (es1 & v & coin & es2 & -> & Hj & J).
      exists es1, v, coin, (es2 ++ [e]). rewrite <- app_assoc. auto.
    + exists es, v, coin, []. auto.
Qed.

Hypothesis toolong_ok : forall tg x, toolong tg (H x) = false.

(* every r-ready an honest party sent has been handed over to its honest receivers *)
Definition ready_quiescent (g : gst) : Prop :=
  forall l q m, In (l, q, m) (gsent g) -> m_act m = 3 -> hon q -> filt (gp g q) FReady l (mtag m) = true.

(* when every honest party satisfies the ready rule for (tg, d), every honest party collects 2t+1 r-ready *)
Lemma ready_quorum : forall g, INV3 g -> handed 3 g -> forall tg d, toolong tg d = false ->
  (forall l, hon l -> rcond (gp g l) tg d) -> forall q, hon q -> 2 * t + 1 <= rd (gp g q) tg d.
Proof.
  intros g I3 HO tg d TL RC q Hq. pose proof (INV3_ready_rule_fired I3) as A2.
  pose proof (honest_counted rd 3 g (INV3_readys_complete I3) (INV3_ready_to_all I3) HO tg d q TL Hq) as CNT.
  destruct (Z.eq_dec t 0) as [T0|T0].
  - destruct (A2 _ _ _ (RC q Hq)) as [S|[_ R]]; [|lia].
    specialize (CNT [q]). cbn [length] in CNT. rewrite <- CNT; [lia|constructor; [intros []|constructor]|].
    intros l [<-|[]] _. split; [apply hon_range|]; auto.
  - specialize (CNT (range n) (range_nodup n)). rewrite range_length in CNT by lia. rewrite <- CNT; [lia|].
    intros l I NB. apply range_in in I. split; auto.
    destruct (A2 _ _ _ (RC l (honest_of l I NB))) as [S|[T _]]; [exact S|contradiction].
Qed.

(* TOTALITY of the agreed digest: once every r-ready has been handed over, a digest accepted by one honest party
   (2t+1 r-ready, the precondition of every delivery on the Bracha path) is accepted by every honest party *)
Theorem totality_digest : forall es p q tg d,
  ready_quiescent (run es) -> dbar (gp (run es) p) tg = Some d -> hon q -> dbar (gp (run es) q) tg = Some d.
Proof.
  intros es p q tg d QU D Hq. change (handed 3 (run es)) in QU. destruct (INV_run es) as (I & I3). set (g := run es) in *.
  (* the digest is a hash value, hence not over-long *)
  assert (TL : toolong tg d = false).
  { destruct (Sup_send g I tg d (dbar_Sup g I _ _ _ D)) as (e & m & _ & _ & -> & _). apply toolong_ok. }
  (* t+1 of the 2t+1 readys p has counted are from honest parties and reach everybody *)
  assert (E1 : forall l, hon l -> rcond (gp g l) tg d).
  { intros l Hl. left. destruct (INV_readys_counted I p tg d) as (Lp & NDp & Lenp & _ & ALp). apply (INV_dbar_needs_2t1 I) in D.
    rewrite <- (honest_counted rd 3 g (INV3_readys_complete I3) (INV3_ready_to_all I3) QU tg d l TL Hl Lp NDp); [lia|].
    intros l0 J NB. destruct (ALp l0 J) as (R & [Y|S]); [elim NB; auto|eauto]. }
  pose proof (INV3_dbar_at_2t1 I3 _ _ _ (ready_quorum g I3 QU tg d TL E1 q Hq)) as NN.
  destruct (dbar (gp g q) tg) as [d'|] eqn:Dq; [|congruence]. f_equal. eapply (dbar_agree g I); eauto.
Qed.

Hypothesis Hskip : skip = 0.
Hypothesis H_inj : forall a b, H a = H b -> a = b.

Lemma grun_ind_ns : forall (P : gst -> Prop), P ginit -> (forall g e, noswitch e = true -> P g -> P (gstep g e)) ->
  forall es, forallb noswitch es = true -> P (run es).
Proof.
  intros P P0 PS es. unfold grun.
  assert (G : forall l g, forallb noswitch l = true -> P g -> P (fold_left gstep l g)).
  { induction l as [|e r IH]; cbn; auto. intros g F Pg. apply andb_true_iff in F. destruct F as [F1 F2]. apply IH; auto. }
  intros F. apply G; auto.
Qed.

Theorem ALL_run : forall es, forallb noswitch es = true -> ALL (run es).
Proof.
  apply grun_ind_ns.
  - exact ALL_init.
  - intros g e NSe [I1 I2 I3 I4a I4b].
    destruct (gstep_cases g e) as [->|(p & st' & out & r & offer & Hp & CR & (Q & Q2 & Q3 & Q4) & Src & OC & Egp & Esent & Elog)];
    [constructor; auto|]. pose proof (INV4a_on_root I4a) as NSg.
    constructor; [eapply INV_onestep|eapply INV2_onestep|eapply INV3_onestep|eapply INV4a_onestep|eapply INV4b_onestep]; eauto.
Qed.

(* every protocol message addressed to an honest party has been processed by it *)
Definition handed_over (g : gst) : Prop :=
  forall l q m, In (l, q, m) (gsent g) -> hon q -> 1 <= m_act m <= 5 -> filt (gp g q) (kind_of (m_act m)) l (mtag m) = true.
(* ... and no party has a deliverable entry left in its deliver buffer *)
Definition buffers_drained (g : gst) : Prop :=
  forall q, hon q -> forall tg, In tg (dbuf (gp g q)) -> deliverable (gp g q) tg = false.
(* the full liveness clause of C14 as a statement: false for schedules with channel switches (totality_with_switches_refuted),
   true on the FIFO root channel without switches (validity_at_quiescence, totality_at_quiescence) *)
Definition delivery_at_quiescence_statement : Prop :=
  forall es id, handed_over (run es) -> buffers_drained (run es) ->
    (forall q, hon q -> cur (gp (run es) q) = id /\ fifo (gp (run es) q) = true) ->
    (* validity: every broadcast of an honest sender on the channel is delivered by every honest party *)
    (forall j dst s v, hon j -> In (j, dst, Msg id j s 1 v) (gsent (run es)) ->
       forall q, hon q -> In (q, (id, j, s), v) (glog (run es))) /\
    (* totality: a slot delivered by one honest party is delivered by all *)
    (forall p j s v, In (p, (id, j, s), v) (glog (run es)) -> forall q, hon q -> exists v', In (q, (id, j, s), v') (glog (run es))).

Lemma handed_over_kind : forall g a, handed_over g -> 1 <= a <= 5 -> handed a g.
Proof. intros g a HO R l q m I <- Hq. apply HO; auto. Qed.

(* a party that has fixed the digest of a slot has attempted its delivery once everything is handed over: it had the payload
   or has asked the parties 0..2t, one of which is honest, echoed that digest and has answered *)
Lemma dbar_TD : forall g, ALL g -> handed_over g -> forall q tg d, hon q -> dbar (gp g q) tg = Some d -> TD g q tg.
Proof.
  intros g [I _ _ _ [_ Ra Rc Ab At Dt _]] HO q tg d Hq D.
  destruct (Dt q tg) as [T|(x & Ax & Tx & Al)]; [congruence|exact T|].
  assert (I0 : In (q, 0, x) (gsent g)) by (apply Al; lia).
  pose proof (Ra _ _ _ I0 Ax) as Dx. rewrite Tx, D in Dx. injection Dx as Pd.
  assert (R2 : quorum (2 * t + 1) (fun l => 0 <= l <= 2 * t)).
  { exists (range (2 * t + 1)). split; [apply range_nodup|]. split; [rewrite range_length; lia|].
    intros l J. apply range_in in J. split; [lia|right; lia]. }
  destruct (quorum_meet _ _ _ _ (Rc _ _ _ I0 Ax) R2) as (l & Hl & (Ec & An) & Rl); [lia|]. rewrite Tx, <- Pd in *.
  pose proof (HO _ _ _ (Al l Rl) Hl) as F. rewrite Ax, Tx in F. destruct (An (F ltac:(lia))) as (a & Ia & Aa & Ta).
  pose proof (HO _ _ _ Ia Hq) as Fa. rewrite Aa, Ta in Fa.
  destruct (At _ _ _ (Fa ltac:(lia)) (hon_byz l Hl)) as [T|(a' & db & Ia' & Aa' & Ta' & Db & NE)]; [exact T|].
  elim NE. rewrite D in Db. injection Db as <-. apply (Sup_unique g I tg); [eapply dbar_Sup; eauto|].
  destruct (Ab _ _ _ Ia' Aa') as (_ & [E'|S']); rewrite Ta' in *; [|exact S'].
  (* l echoed d and the digest of its answer: the same *)
  destruct Ec as (d1 & e1 & Ie1 & Te1 & Ae1 & Pe1). destruct E' as (d2 & e2 & Ie2 & Te2 & Ae2 & Pe2).
  assert (X : d = H (m_pay a')). { rewrite <- Pe1, <- Pe2. eapply (INV_echo_unique I); eauto. congruence. }
  rewrite <- X. eapply dbar_Sup; eauto.
Qed.

(* the deliver buffer drains in sequence order: the first slot not yet delivered cannot have been attempted *)
Lemma attempts_delivered : forall g, ALL g -> buffers_drained g -> forall q w S, hon q ->
  (forall s, 1 <= s <= S -> TD g q (0, w, s)) -> forall s, 1 <= s <= S -> exists v, In (q, (0, w, s), v) (glog g).
Proof.
  intros g A BD q w S Hq T s Rs. pose proof (INV4a_on_root (ALL_INV4a A)) as NSg.
  destruct (INV4a_log_counter (ALL_INV4a A)) as (DLa & DLb & DLc). apply DLb.
  destruct (NSg q) as [C F]. pose proof (DLc q w) as D1.
  destruct (Z_lt_le_dec S (dls (gp g q) w)) as [X|X]; [lia|exfalso].
  destruct (T (dls (gp g q) w)) as [(v & I)|[I|O]]; [lia| | |].
  - apply DLa in I. lia.
  - apply (BD q Hq) in I. unfold deliverable in I. rewrite C, F, !Z.eqb_refl in I. discriminate I.
  - unfold obsolete in O. rewrite C, F in O. cbn in O. apply Z.ltb_lt in O. lia.
Qed.

(* TOTALITY on the FIFO root channel: what one honest party has delivered, every honest party has delivered *)
Theorem totality_at_quiescence : forall es, forallb noswitch es = true ->
  handed_over (run es) -> buffers_drained (run es) ->
  forall p tg v, In (p, tg, v) (glog (run es)) -> forall q, hon q -> In (q, tg, v) (glog (run es)).
Proof.
  intros es NSes HO BD p [[id w] s] v Ip q Hq. pose proof (ALL_run es NSes) as A.
  destruct (INV4a_log_counter (ALL_INV4a A)) as (DLa & DLb & _). destruct (INV4b_delivery_has_dbar (ALL_INV4b A)) as (A13 & _).
  destruct (DLa _ _ _ _ _ Ip) as (-> & Rs).
  (* p has delivered the slots 1..s of w; a party fixed the digest of each, so q did and has attempted the delivery *)
  destruct (attempts_delivered _ A BD q w s Hq) with (s := s) as (v' & Iq); [|lia|].
  - intros s' Rs'. destruct (DLb p w s') as (v1 & I1); [lia|]. destruct (A13 _ _ _ _ I1) as (p' & d & Dp).
    apply (dbar_TD _ A HO q _ d Hq). eapply totality_digest; eauto. apply (handed_over_kind _ 3 HO). lia.
  - rewrite (H_inj v v'); [exact Iq|]. eapply agreement_digest_full; eauto.
Qed.

(* VALIDITY, first part: every honest party attempts the delivery of every slot an honest sender sent to everybody *)
Lemma slot_TD : forall g, ALL g -> handed_over g -> forall j s v, hon j ->
  (forall i, 0 <= i < n -> In (j, i, Msg 0 j s 1 v) (gsent g)) -> forall q, hon q -> TD g q (0, j, s).
Proof.
  intros g A HO j s v Hj ToAll q Hq.
  pose proof A as [I _ I3 [_ _ _ _ U1g _] I4b]. pose proof (INV4b_rsend_echoed I4b) as K5g.
  set (tg := (0, j, s)). set (d := H v).
  (* every honest party echoed H v *)
  assert (EC : forall l, hon l -> echoed g l tg d).
  { intros l Hl. pose proof (ToAll l (hon_range l Hl)) as Im. pose proof (HO _ _ _ Im Hl) as F. cbn in F.
    destruct (K5g l j 0 s (F ltac:(lia)) (hon_byz j Hj)) as (v1 & (dst1 & m1 & Im1 & Tm1 & Am1 & Pm1) & _ & E1).
    rewrite <- Pm1, (U1g j _ m1 _ (Msg 0 j s 1 v) Im1 Im Am1 eq_refl Tm1) in E1. exact E1. }
  assert (TL : toolong tg d = false) by apply toolong_ok.
  (* ... so every honest party has the echo quorum, and then the ready quorum *)
  assert (ED : forall l, hon l -> rcond (gp g l) tg d).
  { intros l Hl. right. pose proof (honest_counted ed 2 g (INV3_echoes_complete I3) (INV3_echo_to_all I3) (handed_over_kind g 2 HO ltac:(lia)) tg d l TL Hl (range n) (range_nodup n)) as X.
    rewrite range_length in X by lia. apply X. intros l0 J NB. apply range_in in J. split; auto. apply EC. apply honest_of; auto. }
  pose proof (INV3_dbar_at_2t1 I3 _ _ _ (ready_quorum g I3 (handed_over_kind g 3 HO ltac:(lia)) tg d TL ED q Hq)) as NN.
  destruct (dbar (gp g q) tg) as [d'|] eqn:Dq; [|congruence]. eapply dbar_TD; eauto.
Qed.

(* VALIDITY on the FIFO root channel: every broadcast of an honest sender has been delivered by every honest party *)
Theorem validity_at_quiescence : forall es, forallb noswitch es = true ->
  handed_over (run es) -> buffers_drained (run es) ->
  forall j dst s v, hon j -> In (j, dst, Msg 0 j s 1 v) (gsent (run es)) ->
  forall q, hon q -> In (q, (0, j, s), v) (glog (run es)).
Proof.
  intros es NSes HO BD j dst s v Hj Im q Hq. pose proof (ALL_run es NSes) as A. set (g := run es) in *.
  pose proof A as [I I2 _ [_ _ _ U0g U1g U2g] _]. pose proof (INV2_log_supported I2) as J8bg.
  destruct (U0g _ _ _ Im eq_refl) as (_ & _ & Rs). cbn in Rs. destruct (U2g j) as (_ & Al).
  destruct (attempts_delivered g A BD q j (sq (gp g j)) Hq) with (s := s) as (v' & Iq); [|exact Rs|].
  - intros s0 Rs0. destruct (Al s0 Rs0) as (v0 & Av). eapply (slot_TD g A HO j s0 v0); auto.
  - rewrite (H_inj v v'); [exact Iq|]. symmetry.
    apply (Sup_send_digest g I U1g j 0 s _ (J8bg _ _ _ Iq) (hon_byz j Hj) dst (Msg 0 j s 1 v) Im); reflexivity.
Qed.

Theorem agreement : forall es p q tg v v',
  In (p, tg, v) (glog (run es)) -> In (q, tg, v') (glog (run es)) -> v = v'.
Proof. intros. apply H_inj. eapply agreement_digest_full; eauto. Qed.

Theorem integrity : forall es p id j s v,
  In (p, (id, j, s), v) (glog (run es)) -> byz j = false ->
  exists es1 coin es2 dst, es = es1 ++ EBcast j v coin :: es2 /\
    In (dst, Msg id j s 1 v) (snd (broadcast n j (gp (run es1) j) v coin)).
Proof.
  intros es p id j s v I Hj.
  destruct (integrity_digest_full es p id j s v I Hj) as (e & m & Im & Tm & Am & Pm). apply H_inj in Pm.
  destruct (rsend_only_by_broadcast es j e m Im Am) as (es1 & v0 & coin & es2 & E & _ & J).
  pose proof J as M. unfold broadcast in M. cbn in M. apply in_to_all in M. subst m.
  unfold mtag in Tm. cbn in Tm, Pm. inversion Tm. subst id s v0. (* a bare subst would use Hskip *) exists es1, coin, es2, e. auto.
Qed.

(* the values handed out by the sender-specific call agree as well: they are Deliver deliveries of the same party *)
Theorem agreement_deliverfrom : forall es p q c i v v' s,
  In (p, c, i, v) (gapi (run es)) -> In (q, (c, i, s), v') (glog (run es)) ->
  exists s', In (p, (c, i, s'), v) (glog (run es)) /\ (s' = s -> v = v').
Proof.
  intros es p q c i v v' s I1 I2. destruct (deliverfrom_isolation_run n t skip H toolong byz es p c i v I1) as (s' & J).
  exists s'. split; auto. intros ->. eapply agreement; eauto.
Qed.
End Bracha.

(* a real n = 4, t = 1 run for the non-vacuity examples: P0 broadcasts 42 on the FIFO root channel, everybody delivers *)
Definition Hodd (x : Z) : Z := 2 * x + 1.          (* injective, never 0 *)
Definition full_events : list event :=
  let snd_ := Msg 0 0 1 1 42 in let ech := Msg 0 0 1 2 85 in let rdy := Msg 0 0 1 3 85 in
  EBcast 0 42 0 ::
  map (fun p => ERecv p 0 snd_) [0;1;2;3] ++
  flat_map (fun p => map (fun l => ERecv p l ech) [0;1;2]) [0;1;2;3] ++
  flat_map (fun p => map (fun l => ERecv p l rdy) [1;2;3]) [0;1;2;3].
Notation full_run := (grun 4 1 0 Hodd (fun _ _ => false) (fun _ => false) full_events).

Lemma full_run_log : glog full_run = [(0, (0, 0, 1), 42); (1, (0, 0, 1), 42); (2, (0, 0, 1), 42); (3, (0, 0, 1), 42)].
Proof. vm_compute. reflexivity. Qed.
Lemma full_run_not_retrieved : forall p, In p [0;1;2;3] -> ~ retrieved (gp full_run p) (0, 0, 1).
Proof.
  intros p [<-|[<-|[<-|[<-|[]]]]] [l E]; vm_compute in E; discriminate.
Qed.
Lemma Hodd_inj : forall a b, Hodd a = Hodd b -> a = b.
Proof. unfold Hodd. intros. lia. Qed.
Lemma Hodd_nonzero : forall m, Hodd m <> 0.
Proof. unfold Hodd. intros. lia. Qed.

(* the same run with every r-ready handed over: meets the premises of totality_digest *)
Definition quiet_events : list event := full_events ++ map (fun p => ERecv p 0 (Msg 0 0 1 3 85)) [0;1;2;3].
Notation quiet_run := (grun 4 1 0 Hodd (fun _ _ => false) (fun _ => false) quiet_events).
(* a decidable check that every message whose kind satisfies ok and whose receiver is honest has been processed *)
Definition ho_check (ok : Z -> bool) (n : Z) (byz : Z -> bool) (g : gst) : bool :=
  forallb (fun e : Z * Z * msg => match e with (l, q, m) =>
             if honest n byz q && ok (m_act m) then filt (gp g q) (kind_of (m_act m)) l (mtag m) else true end) (gsent g).
Lemma ho_check_sound : forall ok n byz g, ho_check ok n byz g = true ->
  forall l q m, In (l, q, m) (gsent g) -> honest n byz q = true -> ok (m_act m) = true ->
  filt (gp g q) (kind_of (m_act m)) l (mtag m) = true.
Proof.
  intros ok n byz g C l q m I Hq R. unfold ho_check in C. rewrite forallb_forall in C. specialize (C _ I). cbn in C.
  rewrite Hq, R in C. exact C.
Qed.
Lemma rq_check_sound : forall n byz g, ho_check (Z.eqb 3) n byz g = true -> ready_quiescent n byz g.
Proof.
  intros n byz g C l q m I A Hq. pose proof (ho_check_sound _ n byz g C l q m I Hq) as F. rewrite A in F. exact (F eq_refl).
Qed.
Lemma ho_check_handed : forall n byz g, ho_check (fun a => (1 <=? a) && (a <=? 5)) n byz g = true -> handed_over n byz g.
Proof.
  intros n byz g C l q m I Hq R. apply (ho_check_sound _ n byz g C l q m I Hq). apply andb_true_iff. split; apply Z.leb_le; lia.
Qed.
Lemma quiet_run_quiescent : ready_quiescent 4 (fun _ => false) quiet_run.
Proof. apply rq_check_sound. vm_compute. reflexivity. Qed.
Lemma quiet_run_dbar : dbar (gp quiet_run 0) (0, 0, 1) = Some 85.
Proof. vm_compute. reflexivity. Qed.

(* a fully quiescent n = 4, t = 1 run: every message handed over, deliver buffers empty *)
Definition done_events : list event :=
  let snd_ := Msg 0 0 1 1 42 in let ech := Msg 0 0 1 2 85 in let rdy := Msg 0 0 1 3 85 in
  EBcast 0 42 0 ::
  map (fun p => ERecv p 0 snd_) [0;1;2;3] ++
  flat_map (fun p => map (fun l => ERecv p l ech) [0;1;2;3]) [0;1;2;3] ++
  flat_map (fun p => map (fun l => ERecv p l rdy) [0;1;2;3]) [0;1;2;3].
Notation done_run := (grun 4 1 0 Hodd (fun _ _ => false) (fun _ => false) done_events).

Definition bd_check (n : Z) (g : gst) : bool :=
  forallb (fun q => forallb (fun tg => negb (deliverable (gp g q) tg)) (dbuf (gp g q))) (range n).
Lemma bd_check_sound : forall n byz g, bd_check n g = true -> buffers_drained n byz g.
Proof.
  intros n byz g C q Hq tg I. unfold bd_check in C. rewrite forallb_forall in C.
  assert (Rq : In q (range n)). { apply range_in. unfold honest, is_party in Hq. b2p. lia. }
  specialize (C q Rq). rewrite forallb_forall in C. specialize (C tg I). apply negb_true_iff in C. exact C.
Qed.
Lemma done_run_quiescent : forallb noswitch done_events = true /\
  handed_over 4 (fun _ => false) done_run /\ buffers_drained 4 (fun _ => false) done_run.
Proof.
  split; [vm_compute; reflexivity|]. split; [apply ho_check_handed|apply bd_check_sound]; vm_compute; reflexivity.
Qed.
Lemma done_run_log : glog done_run = [(0, (0, 0, 1), 42); (1, (0, 0, 1), 42); (2, (0, 0, 1), 42); (3, (0, 0, 1), 42)].
Proof. vm_compute. reflexivity. Qed.

(* finding F10: with channel switches totality FAILS (the out-of-order handler answers across channels) *)
Definition byz3 (l : Z) : bool := l =? 3.
Definition hon3 : list Z := [0; 1; 2].
(* the faulty P3 behaving like an honest sender of slot (id, 3, s) with value v, everything handed over among P0..P2 *)
Definition bcast3 (id s v : Z) : list event :=
  map (fun p => ERecv p 3 (Msg id 3 s 1 v)) hon3 ++
  flat_map (fun p => map (fun l => ERecv p l (Msg id 3 s 2 (Hodd v))) hon3) hon3 ++
  flat_map (fun p => map (fun l => ERecv p l (Msg id 3 s 3 (Hodd v))) hon3) hon3.
Definition cross_events : list event :=
  [ESetID 0 7 true; ESetID 1 8 true; ESetID 2 8 true] ++          (* P0 on channel 7, P1 and P2 on channel 8 *)
  bcast3 8 1 50 ++                                                 (* slot (8,3,1): deliver_s[3] = 2 at P1, P2 *)
  [ERecv 1 3 (Msg 7 3 1 1 51); ERecv 2 3 (Msg 7 3 1 1 51)] ++      (* payload of (7,3,1) to P1, P2 only: no quorum ever *)
  flat_map (fun p => map (fun l => ERecv p l (Msg 7 3 1 2 (Hodd 51))) [1; 2]) hon3 ++
  bcast3 7 2 52 ++                                                 (* slot (7,3,2) properly: P0 buffers it and asks for slot 1 *)
  [EIdle 0; ERecv 1 0 (Msg 7 3 1 6 6); ERecv 2 0 (Msg 7 3 1 6 6);  (* P1, P2 answer although they sit on channel 8 *)
   ERecv 0 1 (Msg 7 3 1 7 51); ERecv 0 2 (Msg 7 3 1 7 51); ERecv 0 3 (Msg 7 3 1 7 51); EIdle 0;   (* P0 delivers slots 1, 2 *)
   EUnsetID 1 true; ESetID 1 7 true; EUnsetID 2 true; ESetID 2 7 true; EIdle 1; EIdle 2].         (* P1, P2 come to channel 7 *)
Notation cross_run := (grun 4 1 0 Hodd (fun _ _ => false) byz3 cross_events).

Lemma cross_run_log : glog cross_run = [(1, (8, 3, 1), 50); (2, (8, 3, 1), 50); (0, (7, 3, 1), 51); (0, (7, 3, 2), 52)].
Proof. vm_compute. reflexivity. Qed.

(* one faulty party out of four, every protocol message between honest parties handed over, deliver buffers drained, all honest
   parties on the FIFO channel 7: P0 has delivered slot (7,3,1), P1 never will *)
Theorem totality_with_switches_refuted : ~ delivery_at_quiescence_statement 4 1 0 Hodd (fun _ _ => false) byz3.
Proof.
  intros S. specialize (S cross_events 7).
  assert (HO : handed_over 4 byz3 cross_run) by (apply ho_check_handed; vm_compute; reflexivity).
  assert (BD : buffers_drained 4 byz3 cross_run) by (apply bd_check_sound; vm_compute; reflexivity).
  assert (CH : forall q, honest 4 byz3 q = true -> cur (gp cross_run q) = 7 /\ fifo (gp cross_run q) = true).
  { assert (E : forallb (fun q => (cur (gp cross_run q) =? 7) && fifo (gp cross_run q)) hon3 = true) by (vm_compute; reflexivity).
    intros q Hq. unfold honest, is_party, byz3 in Hq. b2p. rewrite forallb_forall in E.
    assert (Iq : In q hon3) by (cbn; lia). apply E in Iq. b2p. auto. }
  destruct (S HO BD CH) as [_ T].
  assert (I0 : In (0, (7, 3, 1), 51) (glog cross_run)) by (rewrite cross_run_log; cbn; auto).
  destruct (T 0 3 1 51 I0 1 eq_refl) as (v' & I1). rewrite cross_run_log in I1. cbn in I1.
  repeat (destruct I1 as [I1|I1]; [discriminate I1|]). exact I1.
Qed.
