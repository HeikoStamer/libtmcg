(* SoundLemmas: special soundness (extractors) for Schnorr / Chaum-Pedersen, and the counting theorem for the
   cut-and-choose guessing prover. *)
From Coq Require Import ZArith Znumtheory List Bool Lia.
From LT Require Import Zbase SoundModel.
Import ListNotations.
Local Open Scope Z_scope.

(* q need not be prime for the algebra of extraction, only for the extractor to succeed *)
Section Cancel.
  Variables p q : Z.
  Hypothesis Hp : 1 < p.
  Hypothesis Hq : 0 < q.

  (* cancelling a power of g: g^((q-1) ra) is the inverse of g^ra, so  g^ra * x = g^rb * y  (mod p)  gives
     x = g^d * y  with d = rb - ra mod q in [0,q) *)
  Lemma cancel_power g x y ra rb : powm g q p = 1 -> 0 <= ra -> 0 <= rb ->
    (powm g ra p * x) mod p = (powm g rb p * y) mod p ->
    x mod p = (powm g ((rb + (q - 1) * ra) mod q) p * y) mod p.
  Proof.
    intros Hg Ha Hb E. assert (Hn : 0 <= (q - 1) * ra) by nia.
    pose proof (invm_inverse _ _ _ Hp (powm_inverse p q g Hp Hq Hg ra Ha)) as [_ I].
    rewrite <- (mod_cancel_l p _ _ x I), (Z.mul_comm x), E.
    rewrite (powm_mod_order p q g Hp Hq Hg), powm_add, !Zmult_mod_idemp_l by lia. f_equal. apply Z.mul_shuffle0.
  Qed.

  (* the heart of special soundness: two accepting answers to one commitment t = g^r * h^c.  Cancelling g^r and then
     h^c' leaves g^num = h^den; raised to the inverse d of den modulo q this is g^(num d) = h. *)
  Lemma two_answers g h r r' c c' d :
    powm g q p = 1 -> powm h q p = 1 -> 0 <= r -> 0 <= r' -> 0 <= c -> 0 <= c' -> 0 <= d ->
    (powm g r p * powm h c p) mod p = (powm g r' p * powm h c' p) mod p ->
    (ext_den q c c' * d) mod q = 1 ->
    powm g ((ext_num q r r' * d) mod q) p = h mod p.
  Proof.
    intros Hg Hh Hr Hr' Hc Hc' Hd E D.
    assert (Hn : 0 <= ext_num q r r') by (unfold ext_num; nia).
    assert (Hm : 0 <= ext_den q c c') by (unfold ext_den; nia).
    apply cancel_power in E; try assumption. fold (ext_num q r r') in E.
    (* the same equation read from the other side, in the shape cancel_power takes (its y is 1) *)
    assert (E2 : (powm h c' p * powm g (ext_num q r r' mod q) p) mod p = (powm h c p * 1) mod p)
      by (now rewrite Z.mul_1_r, Z.mul_comm).
    apply cancel_power in E2; try assumption. fold (ext_den q c c') in E2.
    rewrite Z.mul_1_r, !(Z.mod_small (powm _ _ p)) in E2 by (apply powm_range; [|apply Z.mod_pos_bound]; lia).
    rewrite !(powm_mod_order p q) in E2 by assumption.
    rewrite (powm_mod_order p q g), powm_mul, E2, <- powm_mul, <- (powm_mod_order p q h), D by (assumption || nia).
    reflexivity.
  Qed.
End Cancel.

Section Extract.
  Variables p q : Z.
  Hypothesis Hp : 1 < p.
  Hypothesis Hq : prime q.

  Let q_pos : 1 < q := prime_gt1 q Hq.

  Theorem schnorr_extract_sound g h t r r' c c' x :
    powm g q p = 1 -> powm h q p = 1 -> 0 <= r -> 0 <= r' -> 0 <= c -> 0 <= c' ->
    (powm g r p * powm h c p) mod p = t -> (powm g r' p * powm h c' p) mod p = t ->
    ext_exp q r r' c c' = Some x -> 0 <= x < q /\ powm g x p = h mod p.
  Proof.
    intros Hg Hh Hr Hr' Hc Hc' E1 E2 X. unfold ext_exp in X.
    destruct (invm (ext_den q c c' mod q) q) as [d0|]; [|discriminate]. cbv zeta in X.
    (* the extractor checks a * d = 1 itself before it answers, so nothing about invm is needed *)
    destruct (Z.eqb_spec ((ext_den q c c' mod q * (d0 mod q)) mod q) 1) as [D|]; [|discriminate].
    injection X as <-. rewrite Zmult_mod_idemp_l in D.
    split; [apply Z.mod_pos_bound; lia|].
    apply (two_answers p q Hp ltac:(lia) g h r r' c c'); try assumption; [apply Z.mod_pos_bound; lia|congruence].
  Qed.

  (* the extractor succeeds whenever the two challenges differ modulo q *)
  Lemma ext_exp_total r r' c c' : c mod q <> c' mod q -> exists x, ext_exp q r r' c c' = Some x.
  Proof.
    intros N. unfold ext_exp. set (a := ext_den q c c' mod q).
    assert (Ha : a mod q <> 0).
    { unfold a, ext_den. rewrite Z.mod_mod by lia. intros Z0. apply N.
      replace (c + (q - 1) * c') with ((c - c') + c' * q) in Z0 by ring.
      rewrite Z.mod_add in Z0 by lia. apply Z.mod_divide in Z0; [|lia]. destruct Z0 as [w Hw].
      replace c with (c' + w * q) by lia. now rewrite Z.mod_add by lia. }
    destruct (invm_prime a q Hq Ha) as [d0 E]. rewrite E. apply invm_inverse in E as [R E]; [|assumption].
    rewrite (Z.mod_small d0), E by assumption. cbn [Z.eqb Pos.eqb]. eauto.
  Qed.

  Theorem schnorr_extract_exists g h t r r' c c' :
    powm g q p = 1 -> powm h q p = 1 -> 0 <= r -> 0 <= r' -> 0 <= c -> 0 <= c' ->
    (powm g r p * powm h c p) mod p = t -> (powm g r' p * powm h c' p) mod p = t ->
    c mod q <> c' mod q -> exists x, 0 <= x < q /\ powm g x p = h mod p.
  Proof.
    intros Hg Hh Hr Hr' Hc Hc' E1 E2 N. destruct (ext_exp_total r r' c c' N) as [x X].
    exists x. now apply (schnorr_extract_sound g h t r r' c c').
  Qed.

  (* Chaum-Pedersen: one exponent for both components, so a false equality-of-dlog statement has at most one
     answerable challenge residue *)
  Theorem cp_extract_exists gg hh x y a b r r' c c' :
    powm gg q p = 1 -> powm hh q p = 1 -> powm x q p = 1 -> powm y q p = 1 ->
    0 <= r -> 0 <= r' -> 0 <= c -> 0 <= c' ->
    (powm gg r p * powm x c p) mod p = a -> (powm gg r' p * powm x c' p) mod p = a ->
    (powm hh r p * powm y c p) mod p = b -> (powm hh r' p * powm y c' p) mod p = b ->
    c mod q <> c' mod q ->
    exists al, 0 <= al < q /\ powm gg al p = x mod p /\ powm hh al p = y mod p.
  Proof.
    intros Hg Hh Hx Hy Hr Hr' Hc Hc' A1 A2 B1 B2 N. destruct (ext_exp_total r r' c c' N) as [al X].
    destruct (schnorr_extract_sound gg x a r r' c c' al) as [R Ex]; try assumption.
    destruct (schnorr_extract_sound hh y b r r' c c' al) as [_ Ey]; try assumption.
    now exists al.
  Qed.

  (* interactive key proof: the verifier's equation  g^m2 = m1 * key^c  in the form used above *)
  Theorem keyint_extract_sound g key m1 m2 m2' c c' x :
    powm g q p = 1 -> powm key q p = 1 -> 0 <= m2 -> 0 <= m2' -> 0 <= c -> 0 <= c' ->
    powm g m2 p = (m1 * powm key c p) mod p -> powm g m2' p = (m1 * powm key c' p) mod p ->
    ext_exp_int q m2 m2' c c' = Some x -> 0 <= x < q /\ powm g x p = key mod p.
  Proof.
    intros Hg Hk H2 H2' Hc Hc' E1 E2 X. unfold ext_exp_int in X.
    apply (schnorr_extract_sound g key ((powm g m2' p * powm key c p) mod p) m2' m2 c c' x); try assumption; try reflexivity.
    (* g^m2 * key^c' = m1 * key^c * key^c' = g^m2' * key^c *)
    rewrite E1, E2. rewrite !Zmult_mod_idemp_l. f_equal. ring.
  Qed.
End Extract.

(* cut and choose: the guessing prover is accepted for exactly the guessed coin string *)
Section Counting.
  Variables stack secret com : Type.
  Variable mix : stack -> secret -> stack.
  Variable commit : stack -> com.
  Variables s s2 : stack.
  Hypothesis commit_inj : forall a b, commit a = commit b -> a = b.      (* no hash collision on the compared stacks *)
  Hypothesis mix_inj : forall z a b, mix a z = mix b z -> a = b.          (* masking with one secret is injective *)
  Hypothesis false_statement : s <> s2.

  Lemma round_guess b g z : round_ok _ _ _ mix commit s s2 b (guess_msg _ _ _ mix commit s s2 g z) <-> b = g.
  Proof.
    unfold round_ok, guess_msg. cbn [fst snd]. split.
    - intros E. apply commit_inj in E. apply mix_inj in E.
      destruct b, g; cbn [src] in E; try reflexivity; exfalso; apply false_statement; congruence.
    - intros ->. reflexivity.
  Qed.

  Theorem guessing_accept_iff : forall (guess : list bool) (zs : list secret) (coins : list bool),
    length zs = length guess ->
    (accepts _ _ _ mix commit s s2 coins (guess_msgs _ _ _ mix commit s s2 guess zs) <-> coins = guess).
  Proof.
    unfold accepts. induction guess as [|g gr IH]; intros zs coins L.
    - destruct zs; [|discriminate]. cbn [guess_msgs]. split.
      + intros F. now inversion F.
      + intros ->. constructor.
    - destruct zs as [|z zr]; [discriminate|]. cbn [guess_msgs]. cbn in L. split.
      + intros F. inversion F as [|b m cr mr Hb Hr]; subst.
        apply round_guess in Hb. apply IH in Hr; [|lia]. congruence.
      + intros ->. constructor; [now apply round_guess|]. apply IH; [lia|reflexivity].
  Qed.
End Counting.

Lemma bools_eqb_eq a : forall b, bools_eqb a b = true <-> a = b.
Proof.
  induction a as [|x a IH]; intros [|y b]; cbn [bools_eqb]; split; try discriminate; try reflexivity.
  - intros E. apply andb_true_iff in E. destruct E as [E1 E2]. apply Bool.eqb_prop in E1. apply IH in E2. congruence.
  - intros E. inversion E; subst. apply andb_true_iff. split; [apply Bool.eqb_reflx|now apply IH].
Qed.

Lemma filter_map_cons (f : list bool -> bool) (b : bool) (L : list (list bool)) :
  filter f (map (cons b) L) = map (cons b) (filter (fun l => f (b :: l)) L).
Proof.
  induction L as [|l L IH]; [reflexivity|]. cbn [map filter]. destruct (f (b :: l)); cbn [map]; now rewrite IH.
Qed.

Lemma filter_none {A} (f : A -> bool) (L : list A) : (forall x, f x = false) -> filter f L = [].
Proof. intros H. induction L as [|x L IH]; [reflexivity|]. cbn. now rewrite H. Qed.

Theorem filter_guess guess : filter (guess_verdict guess) (all_coins (length guess)) = [guess].
Proof.
  induction guess as [|g gr IH]; [reflexivity|].
  cbn [length all_coins]. rewrite filter_app, !filter_map_cons.
  unfold guess_verdict in *. cbn [bools_eqb].
  destruct g; cbn [Bool.eqb andb]; rewrite IH, (filter_none (fun _ => false)) by reflexivity; reflexivity.
Qed.

Theorem guessing_exactly_one guess : accepting_count guess = 1%nat.
Proof. unfold accepting_count. now rewrite filter_guess. Qed.

Theorem all_coins_length k : length (all_coins k) = (2 ^ k)%nat.
Proof.
  induction k as [|k IH]; [reflexivity|]. cbn [all_coins]. rewrite app_length, !map_length, IH. cbn. lia.
Qed.

Theorem all_coins_complete x : In x (all_coins (length x)).
Proof.
  induction x as [|b x IH]; [now left|]. cbn [length all_coins]. apply in_or_app.
  destruct b; [left|right]; now apply in_map.
Qed.
