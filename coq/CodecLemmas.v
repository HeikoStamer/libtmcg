(* CodecLemmas: proofs about CodecModel (round trips of the textual transport encoding). *)
From Coq Require Import ZArith NArith List Bool Lia.
From LT Require Import ListFacts gen_Consts CodecModel.
Import ListNotations.
Local Open Scope N_scope.

Definition dstep (b : N) := fun a d : N => a * b + d.

Lemma from_digits_unfold b ds : from_digits b ds = fold_left (dstep b) ds 0.
Proof. reflexivity. Qed.

Lemma fold_dstep_snoc b ds d a : fold_left (dstep b) (ds ++ [d]) a = fold_left (dstep b) ds a * b + d.
Proof. rewrite fold_left_app. reflexivity. Qed.

Lemma fold_dstep_range b ds : 1 <= b -> Forall (fun d => d < b) ds -> forall a,
  a * b ^ N.of_nat (length ds) <= fold_left (dstep b) ds a < (a + 1) * b ^ N.of_nat (length ds).
Proof.
  intros Hb. induction 1 as [|d r Hd _ IH]; intros a; cbn [fold_left length].
  - cbn. lia.
  - rewrite Nnat.Nat2N.inj_succ, N.pow_succ_r'. specialize (IH (dstep b a d)).
    set (v := fold_left _ _ _) in *. unfold dstep in IH. nia.
Qed.

Lemma to_digits_fuel_fold b fuel : 2 <= b -> forall n acc,
  n < 2 ^ N.of_nat fuel ->
  fold_left (dstep b) (to_digits_fuel b fuel n acc) 0 = fold_left (dstep b) acc n.
Proof.
  intros Hb. induction fuel as [|f IH]; intros n acc Hn.
  - simpl in *. assert (n = 0) by lia. subst. reflexivity.
  - cbn [to_digits_fuel]. destruct (N.eqb_spec n 0) as [->|E]; [reflexivity|]. rewrite IH.
    + cbn [fold_left]. unfold dstep at 2. f_equal.
      rewrite N.mul_comm. symmetry. apply N.div_mod. lia.
    + rewrite Nnat.Nat2N.inj_succ, N.pow_succ_r' in Hn. apply N.div_lt_upper_bound; [lia|nia].
Qed.

Lemma size_bound n : n < 2 ^ N.of_nat (S (N.to_nat (N.size n))).
Proof.
  rewrite Nnat.Nat2N.inj_succ, Nnat.N2Nat.id, N.pow_succ_r'.
  destruct n as [|p]; [cbn; lia|].
  pose proof (N.size_gt (Npos p)). lia.
Qed.

Lemma from_to_digits b n : 2 <= b -> from_digits b (to_digits b n) = n.
Proof.
  intros Hb. unfold to_digits. destruct (N.eqb_spec n 0) as [->|E]; [reflexivity|].
  rewrite from_digits_unfold, to_digits_fuel_fold; [reflexivity|assumption|apply size_bound].
Qed.

Lemma to_digits_fuel_acc b fuel : forall n acc, exists l,
  to_digits_fuel b fuel n acc = l ++ acc /\ (length l <= fuel)%nat /\ (0 < b -> Forall (fun d => d < b) l).
Proof.
  induction fuel as [|f IH]; intros n acc; cbn [to_digits_fuel]; [now exists []|].
  destruct (n =? 0); [exists []; repeat split; [cbn; lia|constructor]|].
  destruct (IH (n / b) (n mod b :: acc)) as (l & -> & L & F). exists (l ++ [n mod b]).
  rewrite <- app_assoc, last_length. split; [reflexivity|]. split; [lia|]. intros Hb. apply Forall_app. split; [auto|].
  constructor; [apply N.mod_lt; lia|constructor].
Qed.

Lemma to_digits_lt b n : 0 < b -> Forall (fun d => d < b) (to_digits b n).
Proof.
  intros Hb. unfold to_digits. destruct (n =? 0); [constructor; [lia|constructor]|].
  destruct (to_digits_fuel_acc b (S (N.to_nat (N.size n))) n []) as (l & -> & _ & F).
  rewrite app_nil_r. auto.
Qed.

Lemma to_digits_nonempty b n : to_digits b n <> [].
Proof.
  unfold to_digits. destruct (n =? 0) eqn:E; [discriminate|]. cbn [to_digits_fuel]. rewrite E.
  destruct (to_digits_fuel_acc b (N.to_nat (N.size n)) (n / b) [n mod b]) as (l & -> & _).
  now destruct l.
Qed.

Lemma between_true lo hi c : lo <= c <= hi -> (lo <=? c) && (c <=? hi) = true.
Proof. intros [L U]. apply N.leb_le in L, U. now rewrite L, U. Qed.

Lemma between_false lo hi c : c < lo \/ hi < c -> (lo <=? c) && (c <=? hi) = false.
Proof. intros [L|U]; [apply N.leb_gt in L; now rewrite L|apply N.leb_gt in U; rewrite U; apply andb_false_r]. Qed.

Lemma digit_char_cases d : d < 62 ->
  d < 10 /\ digit_char d = 48 + d \/ 10 <= d < 36 /\ digit_char d = 55 + d \/ 36 <= d /\ digit_char d = 61 + d.
Proof. intros H. unfold digit_char. destruct (N.ltb_spec d 10); [|destruct (N.ltb_spec d 36)]; lia. Qed.

Lemma char_digit_char d : d < 62 -> char_digit (digit_char d) = d.
Proof.
  intros H. unfold char_digit. destruct (digit_char_cases d H) as [[R ->]|[[R ->]|[R ->]]].
  - rewrite (between_true 48 57) by lia. lia.
  - rewrite (between_false 48 57), (between_true 65 90) by lia. lia.
  - rewrite (between_false 48 57), (between_false 65 90), (between_true 97 122) by lia. lia.
Qed.

Lemma char_digit10_char d : d < 10 -> char_digit10 (digit_char d) = d.
Proof.
  intros H. unfold char_digit10, digit_char. rewrite (proj2 (N.ltb_lt d 10) H), between_true by lia. lia.
Qed.

Lemma digit_char_range d : d < 62 -> 48 <= digit_char d <= 122 /\ digit_char d <> 94.
Proof. intros H. destruct (digit_char_cases d H) as [[R ->]|[[R ->]|[R ->]]]; lia. Qed.

Lemma not_space c : 48 <= c -> is_space c = false.
Proof. intros H. unfold is_space. rewrite between_false by lia. destruct (N.eqb_spec c 32); [lia|reflexivity]. Qed.

Definition plain (c : N) : Prop := c <> 0 /\ c <> bar /\ c <> hat /\ c <> 10.

Lemma digit_char_plain d : d < 62 -> plain (digit_char d).
Proof. intros H. pose proof (digit_char_range d H). unfold plain, bar, hat. lia. Qed.

Lemma digit_text (P : N -> Prop) b ds : (forall d, d < 62 -> P (digit_char d)) -> b <= 62 ->
  Forall (fun d => d < b) ds -> Forall P (map digit_char ds).
Proof.
  intros HP Hb F. apply Forall_map. eapply Forall_impl; [|exact F].
  intros d Hd. cbv beta in Hd. apply HP. lia.
Qed.

Lemma digit_text_values cd b ds : (forall d, d < b -> cd (digit_char d) = d) -> Forall (fun d => d < b) ds ->
  map cd (map digit_char ds) = ds /\ forallb (fun c => cd c <? b) (map digit_char ds) = true.
Proof.
  intros Hcd F. split.
  - induction F as [|d r Hd _ IH]; cbn [map]; [reflexivity|]. now rewrite Hcd, IH.
  - apply forallb_forall, Forall_forall, Forall_map. eapply Forall_impl; [|exact F].
    intros d Hd. cbv beta in Hd. rewrite Hcd by exact Hd. now apply N.ltb_lt.
Qed.

Lemma cstr_id s : Forall (fun c => c <> 0) s -> cstr s = s.
Proof.
  induction 1 as [|c r Hc _ IH]; [reflexivity|]. cbn [cstr].
  destruct (N.eqb_spec c 0); [contradiction|]. now rewrite IH.
Qed.

Lemma filter_nospace s : Forall (fun c => 48 <= c) s -> filter (fun c => negb (is_space c)) s = s.
Proof.
  induction 1 as [|c r Hc _ IH]; [reflexivity|]. cbn [filter]. rewrite not_space by exact Hc. cbn. now rewrite IH.
Qed.

Lemma digit_text_clean b ds : b <= 62 -> Forall (fun d => d < b) ds ->
  let s := map digit_char ds in cstr s = s /\ drop_space s = s /\ Forall (fun c => 48 <= c) s.
Proof.
  intros Hb F s.
  assert (G : Forall (fun c => 48 <= c) s) by (apply (digit_text _ b); [apply digit_char_range|assumption..]).
  split; [|split; [|exact G]].
  - apply cstr_id. eapply Forall_impl; [|exact G]. cbv beta. lia.
  - destruct G as [|c r Hc _]; [reflexivity|]. cbn [drop_space]. now rewrite not_space.
Qed.

Lemma decode_mag_digits ds : ds <> [] -> Forall (fun d => d < 62) ds ->
  decode_mag 62 (map digit_char ds) = Some (from_digits 62 ds).
Proof.
  intros Hne Hd. destruct (digit_text_clean 62 ds (N.le_refl _) Hd) as (_ & _ & G).
  destruct (digit_text_values char_digit 62 ds char_digit_char Hd) as [V A].
  unfold decode_mag, all_digits. rewrite (filter_nospace _ G), V, A.
  destruct Hd as [|d r Hd _]; [contradiction|]. cbn [map].
  now rewrite char_digit_char, (proj2 (N.ltb_lt d 62)).
Qed.

Lemma decode62_text n : let s := map digit_char (to_digits 62 n) in
  decode62 s = Some (Z.of_N n) /\ decode62 (45 :: s) = Some (- Z.of_N n)%Z.
Proof.
  intros s. pose proof (to_digits_lt 62 n eq_refl) as F.
  destruct (digit_text_clean 62 _ (N.le_refl _) F) as (C & D & G). fold s in C, D, G.
  pose proof (decode_mag_digits _ (to_digits_nonempty 62 n) F) as M. fold s in M.
  rewrite from_to_digits in M by lia.
  unfold decode62. change (cstr (45 :: s)) with (45 :: cstr s). rewrite C. change (drop_space (45 :: s)) with (45 :: s). cbv iota.
  rewrite D, N.eqb_refl, M. split; [|reflexivity].
  destruct G as [|c r Hc _]; [discriminate|]. destruct (N.eqb_spec c 45); [lia|reflexivity].
Qed.

Theorem base62_roundtrip z : decode62 (encode62 z) = Some z.
Proof. destruct z as [|p|p]; [reflexivity|apply (decode62_text (Npos p))..]. Qed.

Lemma encode62_chars (P : N -> Prop) z : P 48 -> P 45 -> (forall d, d < 62 -> P (digit_char d)) -> Forall P (encode62 z).
Proof.
  intros P0 Pm Pd.
  assert (D : forall n, Forall P (map digit_char (to_digits 62 n))).
  { intros n. apply (digit_text _ 62); [exact Pd|lia|now apply to_digits_lt]. }
  destruct z; cbn [encode62]; [constructor; [exact P0|constructor]|apply D|constructor; [exact Pm|apply D]].
Qed.

Lemma encode62_plain z : Forall plain (encode62 z).
Proof. apply encode62_chars; [unfold plain, bar, hat; lia..|apply digit_char_plain]. Qed.

Lemma encode_dec_plain n : Forall plain (encode_dec n).
Proof. apply (digit_text _ 10); [apply digit_char_plain|lia|now apply to_digits_lt]. Qed.

Lemma strtoul_encode_dec n : n <= ulong_max -> strtoul_full (encode_dec n) = Some n.
Proof.
  intros Hn. unfold strtoul_full, encode_dec.
  pose proof (to_digits_lt 10 n eq_refl) as F.
  destruct (digit_text_clean 10 _ ltac:(lia) F) as (C & D & G).
  destruct (digit_text_values char_digit10 10 _ char_digit10_char F) as [V A].
  rewrite C, D. destruct (map digit_char (to_digits 10 n)) as [|c r] eqn:E.
  { apply map_eq_nil in E. now apply to_digits_nonempty in E. }
  assert (c <> 45 /\ c <> 43) as [N45 N43] by (inversion G; lia).
  cbn [strip_sign]. apply N.eqb_neq in N45, N43. rewrite N45, N43. cbn [fst snd].
  rewrite A, V, from_to_digits by lia.
  destruct (N.ltb_spec ulong_max n); [lia|reflexivity].
Qed.

Lemma split_at_app p a r : Forall (fun c => c <> p) a -> split_at p (a ++ p :: r) = Some (a, r).
Proof.
  induction 1 as [|c a Hc _ IH]; cbn [app split_at].
  - now rewrite N.eqb_refl.
  - destruct (N.eqb_spec c p); [contradiction|]. now rewrite IH.
Qed.

Lemma bytes_eqb_eq a b : bytes_eqb a b = true <-> a = b.
Proof.
  unfold bytes_eqb. split.
  - revert b. induction a as [|x a IH]; intros [|y b]; cbn; try reflexivity; try discriminate.
    intros H. apply andb_prop in H. destruct H as [L H]. apply andb_prop in H. destruct H as [E H].
    apply N.eqb_eq in E. subst. f_equal. apply IH. now rewrite L, H.
  - intros <-. rewrite Nat.eqb_refl. cbn. induction a as [|c a IH]; [reflexivity|].
    cbn. now rewrite N.eqb_refl, IH.
Qed.

Lemma bytes_eqb_refl a : bytes_eqb a a = true.
Proof. now apply bytes_eqb_eq. Qed.

Lemma plain_not_bar s : Forall plain s -> Forall (fun c => c <> bar) s.
Proof. apply Forall_impl. unfold plain. tauto. Qed.
Lemma plain_not_hat s : Forall plain s -> Forall (fun c => c <> hat) s.
Proof. apply Forall_impl. unfold plain. tauto. Qed.

Lemma encode62_nobar z : Forall (fun c => c <> bar) (encode62 z).
Proof. apply plain_not_bar, encode62_plain. Qed.

Definition free (p : N) (s : bytes) : Prop := Forall (fun c => c <> p) s.

(* for a constant text (the magic words) freedom from a delimiter is computed *)
Lemma free_of_forallb p m : forallb (fun c => negb (c =? p)) m = true -> free p m.
Proof.
  intros H. apply Forall_forall. intros c Hc ->. rewrite forallb_forall in H. specialize (H p Hc). now rewrite N.eqb_refl in H.
Qed.

Lemma free_app p a b : free p a -> free p b -> free p (a ++ b).
Proof. intros. now apply Forall_app. Qed.

Lemma cm_magic m p r : forallb (fun c => negb (c =? p)) m = true -> cm (m ++ p :: r) m p = Some r.
Proof. intros H. unfold cm. now rewrite split_at_app, bytes_eqb_refl by now apply free_of_forallb. Qed.

(* the loop shared by read_fields, read_cards and read_tcards: n items, each closed by the delimiter p *)
Section Items.
  Context {A : Type} (p : N) (imp : bytes -> option A) (ex : A -> bytes).

  Fixpoint read_items (n : nat) (s : bytes) : option (list A * bytes) :=
    match n with
    | O => Some ([], s)
    | S m =>
      match field s p with
      | Some (f, r) =>
        match imp f with
        | Some c => match read_items m r with Some (cs, r') => Some (c :: cs, r') | None => None end
        | None => None
        end
      | None => None
      end
    end.

  Definition item_ok (x : A) : Prop := imp (ex x) = Some x /\ free p (ex x).

  Lemma read_write_items l rest : Forall item_ok l ->
    read_items (length l) (concat (map (fun x => ex x ++ [p]) l) ++ rest) = Some (l, rest).
  Proof.
    induction 1 as [|x l [RT NP] _ IH]; [reflexivity|].
    cbn [length read_items map concat]. unfold field. rewrite <- !app_assoc. cbn [app].
    now rewrite split_at_app, RT, IH.
  Qed.
End Items.

Lemma read_write_fields zs rest : read_fields (length zs) (write_fields zs ++ rest) = Some (zs, rest).
Proof.
  apply (read_write_items bar decode62 encode62). apply Forall_forall. intros z _.
  split; [apply base62_roundtrip|apply encode62_nobar].
Qed.

Lemma read_fields_all zs : read_fields (length zs) (write_fields zs) = Some (zs, []).
Proof. rewrite <- (app_nil_r (write_fields zs)). apply read_write_fields. Qed.

Lemma write_fields_nohat zs : free hat (write_fields zs).
Proof.
  induction zs as [|z zs IH]; [constructor|]. unfold write_fields in *. cbn [map concat].
  rewrite <- app_assoc. apply Forall_app. split; [apply plain_not_hat, encode62_plain|].
  constructor; [discriminate|assumption].
Qed.

Theorem vcard_roundtrip c : import_vcard (export_vcard c) = Some c.
Proof.
  destruct c as [a b]. unfold import_vcard, export_vcard. cbn [fst snd app].
  rewrite cm_magic by reflexivity. now rewrite (read_fields_all [a; b] : read_fields 2 _ = _).
Qed.

Theorem vsecret_roundtrip r : import_vsecret (export_vsecret r) = Some r.
Proof.
  unfold import_vsecret, export_vsecret. cbn [app].
  rewrite cm_magic by reflexivity. now rewrite (read_fields_all [r] : read_fields 1 _ = _).
Qed.

Definition wf_tcard (c : list (list Z)) : Prop :=
  (1 <= length c <= Z.to_nat TMCG_MAX_PLAYERS)%nat /\
  (1 <= length (hd [] c) <= Z.to_nat TMCG_MAX_TYPEBITS)%nat /\
  Forall (fun row => length row = length (hd [] c)) c.

Lemma chunk_concat w c : Forall (fun row => length row = w) c -> chunk (length c) w (concat c) = c.
Proof.
  induction 1 as [|row c Hr _ IH]; [reflexivity|].
  cbn [length chunk concat]. now rewrite (firstn_app_exact w row _ Hr), (skipn_app_exact w row _ Hr), IH.
Qed.

Lemma read_matrix w (c : list (list Z)) : Forall (fun row => length row = w) c ->
  read_fields (length c * w) (write_fields (concat c)) = Some (concat c, []).
Proof.
  intros F. replace (length c * w)%nat with (length (concat c)); [apply read_fields_all|].
  induction F as [|row c Hr _ IH]; [reflexivity|]. cbn [concat length]. rewrite app_length, IH, Hr. lia.
Qed.

(* a dimension within its limit (TMCG_MAX_PLAYERS, TMCG_MAX_TYPEBITS: far below ULONG_MAX) *)
Lemma import_dim_encode n hi rest : (1 <= n <= Z.to_nat hi)%nat -> Z.to_N hi <= ulong_max ->
  import_dim (encode_dec (N.of_nat n) ++ bar :: rest) 1 (Z.to_N hi) = Some (N.of_nat n, rest).
Proof.
  intros Hn Hu. unfold import_dim, field.
  rewrite split_at_app by (apply plain_not_bar, encode_dec_plain).
  rewrite strtoul_encode_dec by lia.
  destruct (N.leb_spec 1 (N.of_nat n)); [|lia]. destruct (N.leb_spec (N.of_nat n) (Z.to_N hi)); [|lia]. reflexivity.
Qed.

Theorem tcard_roundtrip c : wf_tcard c -> import_tcard (export_tcard c) = Some c.
Proof.
  intros (Hk & Hw & Hrows). unfold import_tcard, export_tcard. cbn [app].
  rewrite cm_magic by reflexivity. rewrite !import_dim_encode by (assumption || now compute).
  now rewrite !Nnat.Nat2N.id, (read_matrix _ c Hrows), chunk_concat.
Qed.

Lemma pair_up_unpair l : pair_up (unpair l) = l.
Proof. induction l as [|[a b] l IH]; cbn; [reflexivity|]. f_equal. exact IH. Qed.

Lemma length_unpair l : length (unpair l) = (2 * length l)%nat.
Proof. induction l as [|[a b] l IH]; [reflexivity|]. cbn [unpair flat_map app length fst snd]. fold (unpair l). rewrite IH. lia. Qed.

Definition wf_tsecret (c : list (list (Z * Z))) : Prop :=
  (1 <= length c <= Z.to_nat TMCG_MAX_PLAYERS)%nat /\
  (1 <= length (hd [] c) <= Z.to_nat TMCG_MAX_TYPEBITS)%nat /\
  Forall (fun row => length row = length (hd [] c)) c.

Theorem tsecret_roundtrip c : wf_tsecret c -> import_tsecret (export_tsecret c) = Some c.
Proof.
  intros (Hk & Hw & Hrows). unfold import_tsecret, export_tsecret. cbn [app].
  rewrite cm_magic by reflexivity. rewrite !import_dim_encode by (assumption || now compute).
  assert (Hrows2 : Forall (fun row => length row = (2 * length (hd [] c))%nat) (map unpair c)).
  { apply Forall_map. eapply Forall_impl; [|exact Hrows]. intros row Hr. cbv beta in Hr. now rewrite length_unpair, Hr. }
  rewrite !Nnat.Nat2N.id, <- (map_length unpair c), (read_matrix _ _ Hrows2), (chunk_concat _ _ Hrows2), map_map.
  f_equal. rewrite <- (map_id c) at 2. apply map_ext. exact pair_up_unpair.
Qed.

Example wf_tsecret_example : wf_tsecret [[(5, 1); (-7, 0)]; [(0, 0); (62, 1)]]%Z.
Proof. unfold wf_tsecret. cbn [length hd]. repeat split; try (vm_compute; lia). repeat constructor. Qed.

Lemma nohat_bar s : free hat s -> free hat ([bar] ++ s).
Proof. now constructor. Qed.

Lemma nohat_dec n : free hat (encode_dec n).
Proof. apply plain_not_hat, encode_dec_plain. Qed.

Lemma matrix_nohat magic k w zs : forallb (fun c => negb (c =? hat)) magic = true ->
  free hat (magic ++ [bar] ++ encode_dec k ++ [bar] ++ encode_dec w ++ [bar] ++ write_fields zs).
Proof.
  intros Hm. apply free_app, nohat_bar, free_app, nohat_bar, free_app, nohat_bar, write_fields_nohat;
    [now apply free_of_forallb|apply nohat_dec..].
Qed.

Lemma vcard_item c : item_ok hat import_vcard export_vcard c.
Proof. split; [apply vcard_roundtrip|]. apply free_app, nohat_bar, write_fields_nohat. now apply free_of_forallb. Qed.

Lemma vsecret_item r : item_ok hat import_vsecret export_vsecret r.
Proof. split; [apply vsecret_roundtrip|]. apply free_app, nohat_bar, write_fields_nohat. now apply free_of_forallb. Qed.

Lemma tcard_item c : wf_tcard c -> item_ok hat import_tcard export_tcard c.
Proof. split; [now apply tcard_roundtrip|now apply matrix_nohat]. Qed.

Lemma tsecret_item c : wf_tsecret c -> item_ok hat import_tsecret export_tsecret c.
Proof. split; [now apply tsecret_roundtrip|now apply matrix_nohat]. Qed.

Lemma stack_size_ulong n : (n <= Z.to_nat TMCG_MAX_CARDS)%nat -> N.of_nat n <= ulong_max.
Proof. assert (TMCG_MAX_CARDS < 100000)%Z by reflexivity. unfold ulong_max. lia. Qed.

Lemma import_size_encode n rest : (1 <= n <= Z.to_nat TMCG_MAX_CARDS)%nat ->
  import_size (encode_dec (N.of_nat n) ++ hat :: rest) = Some (N.of_nat n, rest).
Proof.
  intros Hn. unfold import_size, field.
  rewrite split_at_app by apply nohat_dec.
  rewrite strtoul_encode_dec by (apply stack_size_ulong; lia).
  destruct (N.leb_spec 1 (N.of_nat n)); [|lia]. destruct (N.leb_spec (N.of_nat n) (Z.to_N TMCG_MAX_CARDS)); [|lia]. reflexivity.
Qed.

Lemma read_items_all {A} imp (ex : A -> bytes) l : Forall (item_ok hat imp ex) l ->
  read_items hat imp (length l) (concat (map (fun x => ex x ++ [hat]) l)) = Some (l, []).
Proof. intros F. rewrite <- (app_nil_r (concat _)). now apply read_write_items. Qed.

(* import appends: into a used object the result is old ++ new (the reason C11 speaks of fresh objects) *)
Theorem vstack_import_appends old st : (1 <= length st <= Z.to_nat TMCG_MAX_CARDS)%nat ->
  import_vstack old (export_vstack st) = Some (old ++ st).
Proof.
  intros H. unfold import_vstack, export_vstack. cbn [app].
  rewrite cm_magic by reflexivity. rewrite import_size_encode, Nnat.Nat2N.id by exact H.
  change read_cards with (read_items hat import_vcard). rewrite read_items_all; [reflexivity|].
  apply Forall_forall. intros c _. apply vcard_item.
Qed.

Theorem vstack_roundtrip st : (1 <= length st <= Z.to_nat TMCG_MAX_CARDS)%nat ->
  import_vstack [] (export_vstack st) = Some st.
Proof. apply (vstack_import_appends []). Qed.

Theorem tstack_import_appends old st : (1 <= length st <= Z.to_nat TMCG_MAX_CARDS)%nat -> Forall wf_tcard st ->
  import_tstack old (export_tstack st) = Some (old ++ st).
Proof.
  intros H Hwf. unfold import_tstack, export_tstack. cbn [app].
  rewrite cm_magic by reflexivity. rewrite import_size_encode, Nnat.Nat2N.id by exact H.
  change read_tcards with (read_items hat import_tcard). rewrite read_items_all; [reflexivity|].
  eapply Forall_impl; [|exact Hwf]. exact tcard_item.
Qed.

Theorem tstack_roundtrip st : (1 <= length st <= Z.to_nat TMCG_MAX_CARDS)%nat -> Forall wf_tcard st ->
  import_tstack [] (export_tstack st) = Some st.
Proof. apply (tstack_import_appends []). Qed.

Section Pairs.
  Context {A : Type} (imp : bytes -> option A) (ex : A -> bytes).

  (* the loop shared by read_pairs and read_tpairs *)
  Fixpoint read_ipairs (size : N) (n : nat) (s : bytes) {struct n} : option (list (N * A) * bytes) :=
    match n with
    | O => Some ([], s)
    | S m =>
      match field s hat with
      | Some (f, r) =>
        match strtoul_full f with
        | Some idx =>
          if idx <? size then
            match field r hat with
            | Some (g, r') =>
              match imp g with
              | Some sec => match read_ipairs size m r' with
                            | Some (ps, r'') => Some ((idx, sec) :: ps, r'')
                            | None => None
                            end
              | None => None
              end
            | None => None
            end
          else None
        | None => None
        end
      | None => None
      end
    end.

  Lemma read_ipairs_export size ss : size <= ulong_max ->
    Forall (fun p => fst p < size /\ item_ok hat imp ex (snd p)) ss ->
    read_ipairs size (length ss) (concat (map (fun p => encode_dec (fst p) ++ hat :: ex (snd p) ++ [hat]) ss)) = Some (ss, []).
  Proof.
    intros Hs. induction 1 as [|[i r] ss (Hi & RT & NP) _ IH]; [reflexivity|].
    cbn [length read_ipairs map concat fst snd] in *. unfold field. rewrite <- !app_assoc. cbn [app].
    rewrite split_at_app by apply nohat_dec. rewrite strtoul_encode_dec by lia.
    apply N.ltb_lt in Hi. rewrite Hi, <- app_assoc. cbn [app]. now rewrite split_at_app, RT, IH.
  Qed.
End Pairs.

Definition wf_vstacksecret (ss : list (N * Z)) : Prop :=
  (1 <= length ss <= Z.to_nat TMCG_MAX_CARDS)%nat /\
  Forall (fun p => fst p < N.of_nat (length ss)) ss /\
  perm_check ss (N.of_nat (length ss)) = true.

Theorem vstacksecret_roundtrip ss : wf_vstacksecret ss ->
  import_vstacksecret [] (export_vstacksecret ss) = Some ss.
Proof.
  intros (Hn & Hidx & Hperm). unfold import_vstacksecret, export_vstacksecret. cbn [app].
  rewrite cm_magic by reflexivity. rewrite import_size_encode, Nnat.Nat2N.id by exact Hn.
  change read_pairs with (read_ipairs import_vsecret). rewrite (read_ipairs_export _ export_vsecret); [now rewrite Hperm|now apply stack_size_ulong|].
  eapply Forall_impl; [|exact Hidx]. intros p Hp. split; [exact Hp|apply vsecret_item].
Qed.

Definition wf_tstacksecret (ss : list (N * tsec)) : Prop :=
  (1 <= length ss <= Z.to_nat TMCG_MAX_CARDS)%nat /\
  Forall (fun p => fst p < N.of_nat (length ss) /\ wf_tsecret (snd p)) ss /\
  perm_check ss (N.of_nat (length ss)) = true.

Theorem tstacksecret_roundtrip ss : wf_tstacksecret ss ->
  import_tstacksecret [] (export_tstacksecret ss) = Some ss.
Proof.
  intros (Hn & Hidx & Hperm). unfold import_tstacksecret, export_tstacksecret. cbn [app].
  rewrite cm_magic by reflexivity. rewrite import_size_encode, Nnat.Nat2N.id by exact Hn.
  change read_tpairs with (read_ipairs import_tsecret). rewrite (read_ipairs_export _ export_tsecret); [now rewrite Hperm|now apply stack_size_ulong|].
  eapply Forall_impl; [|exact Hidx]. intros p [Hp Hwf]. split; [exact Hp|now apply tsecret_item].
Qed.

Definition nobar (s : bytes) : Prop := Forall (fun c => c <> bar) s.
Definition wf_pubkey (k : pubkey) : Prop := nobar (pk_name k) /\ nobar (pk_email k) /\ nobar (pk_type k) /\ nobar (pk_nizk k).

Theorem pubkey_roundtrip k : wf_pubkey k -> import_pubkey (export_pubkey k) = Some k.
Proof.
  intros (Hn & He & Ht & Hz). destruct k as [name email type m y nizk sig]. cbn [pk_name pk_email pk_type pk_nizk] in *.
  unfold import_pubkey, export_pubkey, field. cbn [pk_name pk_email pk_type pk_m pk_y pk_nizk pk_sig app].
  rewrite cm_magic by reflexivity. rewrite !split_at_app by assumption.
  pose proof (read_write_fields [m; y] (nizk ++ bar :: sig)) as R.
  unfold write_fields in R. cbn [map concat length] in R. rewrite <- !app_assoc in R. cbn [app] in R.
  now rewrite R, split_at_app.
Qed.

(* the guard is necessary: a '|' inside the name shifts every later field *)
Example pubkey_bar_in_name_refuted :
  let k := {| pk_name := [65; bar; 66]; pk_email := [101]; pk_type := [116]; pk_m := 5%Z; pk_y := 7%Z; pk_nizk := [110]; pk_sig := [115] |} in
  import_pubkey (export_pubkey k) <> Some k.
Proof. vm_compute. discriminate. Qed.

(* no two objects within the limits share a text *)
Lemma roundtrip_injective {A} (wf : A -> Prop) (ex : A -> bytes) (im : bytes -> option A) :
  (forall x, wf x -> im (ex x) = Some x) -> forall x y, wf x -> wf y -> ex x = ex y -> x = y.
Proof.
  intros RT x y Hx Hy E. pose proof (RT x Hx) as Rx. rewrite E, (RT y Hy) in Rx. now inversion Rx.
Qed.
