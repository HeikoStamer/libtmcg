(* VtmfVerLemmas: acceptance characterisations, range rules and binding lemmas for the VTMF-layer verifiers. *)
From Coq Require Import ZArith Znumtheory List Bool Lia.
From LT Require Import Zbase gen_Consts FsModel FsLemmas VtmfVerModel.
Import ListNotations.
Local Open Scope Z_scope.

(* Every verifier is a chain of refusals in front of a computation that ends in a comparison.  It accepts iff no
   refusal fires and the rest accepts: the characterisations below peel the refusals off one by one, each with the
   reading of its test, and are left with the computation. *)
Lemma accept_past (b : bool) (v : verdict) : (if b then Reject else v) = Accept <-> b = false /\ v = Accept.
Proof. destruct b; intuition discriminate. Qed.

Lemma accept_unless (b : bool) (v : verdict) (P Q : Prop) :
  (b = false <-> P) -> (v = Accept <-> Q) -> ((if b then Reject else v) = Accept <-> P /\ Q).
Proof. rewrite accept_past. tauto. Qed.

Lemma accept_if (b : bool) (v : verdict) (P Q : Prop) :
  (b = true <-> P) -> (v = Accept <-> Q) -> ((if negb b then Reject else v) = Accept <-> P /\ Q).
Proof. rewrite accept_past, negb_false_iff. tauto. Qed.

Lemma accept_test (b : bool) : (if b then Accept else Reject) = Accept <-> b = true.
Proof. destruct b; intuition discriminate. Qed.

(* a refusal on several tests at once is a refusal on each in turn *)
Lemma refuse_and (a b : bool) (v : verdict) :
  (if negb (a && b) then Reject else v) = (if negb a then Reject else if negb b then Reject else v).
Proof. now destruct a, b. Qed.

Lemma refuse_or (a b : bool) (v : verdict) : (if a || b then Reject else v) = (if a then Reject else if b then Reject else v).
Proof. now destruct a, b. Qed.

Lemma check_element_spec G a : check_element G a = true <-> 0 < a < gp G /\ powm a (gq G) (gp G) = 1.
Proof. unfold check_element. rewrite !andb_true_iff, !Z.ltb_lt, Z.eqb_eq. tauto. Qed.

Theorem key_accept_iff H G foo c r :
  key_verify H G foo c r = Accept <->
  check_element G foo = true /\ bits c <= ghb G /\ Z.abs r < gq G /\
  exists t2 c2, fpowm (gtg G) (tlen G) (gg G) r (gp G) = Some t2 /\ mpz_powm foo c (gp G) = Some c2 /\
                c = H (key_hash_input G foo ((t2 * c2) mod gp G)).
Proof.
  unfold key_verify. apply accept_if; [reflexivity|].
  apply accept_unless; [apply Z.ltb_ge|]. apply accept_unless; [apply Z.leb_gt|]. split.
  - destruct (fpowm (gtg G) (tlen G) (gg G) r (gp G)) as [t2|]; [|discriminate].
    destruct (mpz_powm foo c (gp G)) as [c2|]; [|discriminate].
    rewrite accept_test, Z.eqb_eq. intros E. exists t2, c2. auto.
  - intros (t2 & c2 & -> & -> & E). now apply accept_test, Z.eqb_eq.
Qed.

(* range rules exactly as coded: |r| < q (negative representatives pass), c at most digest length,
   the key share is a member of the order-q subgroup and lies in (0,p) *)
Corollary key_range_rules H G foo c r : key_verify H G foo c r = Accept ->
  - gq G < r < gq G /\ bits c <= ghb G /\ 0 < foo < gp G /\ powm foo (gq G) (gp G) = 1.
Proof. intros A. apply key_accept_iff in A. destruct A as (E & B & C & _). apply check_element_spec in E. lia. Qed.

(* with fpowm_usage the two bases must be the ones the tables were built for *)
Lemma table_base_guard (fp : bool) a b : fp && negb (a =? b) = false <-> (fp = true -> a = b).
Proof. destruct fp, (Z.eqb_spec a b); cbn; intuition congruence. Qed.

Theorem cp_accept_iff H G x y g' h' c r fp :
  cp_verify H G x y g' h' c r fp = Accept <->
  bits c <= ghb G /\ Z.abs r < gq G /\ (fp = true -> gg G = g' /\ gh G = h') /\
  exists a0 xc b0 yc,
    (if fp then fpowm (gtg G) (tlen G) g' r (gp G) else mpz_powm g' r (gp G)) = Some a0 /\
    mpz_powm x c (gp G) = Some xc /\
    (if fp then fpowm (gth G) (tlen G) h' r (gp G) else mpz_powm h' r (gp G)) = Some b0 /\
    mpz_powm y c (gp G) = Some yc /\
    H (cp_hash_input G ((a0 * xc) mod gp G) ((b0 * yc) mod gp G) x y g' h') = c.
Proof.
  unfold cp_verify. apply accept_unless; [apply Z.ltb_ge|]. apply accept_unless; [apply Z.leb_gt|]. split.
  - (* the two table-base tests share one conjunct of the statement *)
    rewrite accept_past, table_base_guard. intros (Eg & A). revert A.
    destruct (if fp then fpowm _ _ g' _ _ else _) as [a0|]; [|destruct fp; discriminate].
    destruct (mpz_powm x c (gp G)) as [xc|]; [|discriminate].
    cbv zeta. rewrite accept_past, table_base_guard.
    destruct (if fp then fpowm _ _ h' _ _ else _) as [b0|]; [|destruct fp; intros (_ & [=])].
    destruct (mpz_powm y c (gp G)) as [yc|]; [|intros (_ & [=])].
    rewrite accept_test, Z.eqb_eq. intros (Eh & E). split; [auto|]. exists a0, xc, b0, yc. auto.
  - intros (D & a0 & xc & b0 & yc & -> & -> & -> & -> & E).
    apply accept_past. split; [apply table_base_guard, D|].
    apply accept_past. split; [apply table_base_guard, D|]. now apply accept_test, Z.eqb_eq.
Qed.

Corollary cp_range_rules H G x y g' h' c r fp : cp_verify H G x y g' h' c r fp = Accept ->
  - gq G < r < gq G /\ bits c <= ghb G /\ (fp = true -> gg G = g' /\ gh G = h').
Proof. intros A. apply cp_accept_iff in A. destruct A as (B & C & D & _). repeat split; try lia; now apply D. Qed.

(* the challenge compared is the hash value itself: two accepted proofs that recompute the same commitment t (the two
   premises say so) carry the same challenge *)
Theorem key_same_commitment_same_challenge H G foo c c' r r' t :
  key_verify H G foo c r = Accept -> key_verify H G foo c' r' = Accept ->
  (forall t2 c2, fpowm (gtg G) (tlen G) (gg G) r (gp G) = Some t2 -> mpz_powm foo c (gp G) = Some c2 -> (t2 * c2) mod gp G = t) ->
  (forall t2 c2, fpowm (gtg G) (tlen G) (gg G) r' (gp G) = Some t2 -> mpz_powm foo c' (gp G) = Some c2 -> (t2 * c2) mod gp G = t) ->
  c = c'.
Proof.
  intros A B Ta Tb. apply key_accept_iff in A, B.
  destruct A as (_ & _ & _ & t2 & c2 & A1 & A2 & A3). destruct B as (_ & _ & _ & t2' & c2' & B1 & B2 & B3).
  rewrite (Ta _ _ A1 A2) in A3. rewrite (Tb _ _ B1 B2) in B3. congruence.
Qed.

(* mask / remask / decrypt are CP_Verify behind membership tests *)
Theorem mask_accept_iff H G m c1 c2 c r :
  mask_verify H G m c1 c2 c r = Accept <->
  check_element G m = true /\ check_element G c1 = true /\ check_element G c2 = true /\
  exists mi, invm m (gp G) = Some mi /\ cp_verify H G c1 ((mi * c2) mod gp G) (gg G) (gh G) c r true = Accept.
Proof.
  unfold mask_verify. rewrite !refuse_and. do 3 (apply accept_if; [reflexivity|]). split.
  - destruct (invm m (gp G)) as [mi|]; [eauto|discriminate].
  - intros (mi & -> & A). exact A.
Qed.

Theorem remask_accept_iff H G c1 c2 d1 d2 c r :
  remask_verify H G c1 c2 d1 d2 c r = Accept <->
  check_element G c1 = true /\ check_element G c2 = true /\ check_element G d1 = true /\ check_element G d2 = true /\
  exists i1 i2, invm c1 (gp G) = Some i1 /\ invm c2 (gp G) = Some i2 /\
    cp_verify H G ((i1 * d1) mod gp G) ((i2 * d2) mod gp G) (gg G) (gh G) c r true = Accept.
Proof.
  unfold remask_verify. rewrite !refuse_and. do 4 (apply accept_if; [reflexivity|]). split.
  - destruct (invm c1 (gp G)) as [i1|]; [|discriminate]. destruct (invm c2 (gp G)) as [i2|]; [eauto|discriminate].
  - intros (i1 & i2 & -> & -> & A). exact A.
Qed.

(* membership rules: every group element the statement speaks about lies in (0,p) and in the order-q subgroup *)
Corollary mask_member_rules H G m c1 c2 c r : mask_verify H G m c1 c2 c r = Accept ->
  (0 < m < gp G /\ powm m (gq G) (gp G) = 1) /\ (0 < c1 < gp G /\ powm c1 (gq G) (gp G) = 1) /\
  (0 < c2 < gp G /\ powm c2 (gq G) (gp G) = 1).
Proof. intros A. apply mask_accept_iff in A. destruct A as (A & B & C & _). now rewrite <- !check_element_spec. Qed.

Corollary remask_member_rules H G c1 c2 d1 d2 c r : remask_verify H G c1 c2 d1 d2 c r = Accept ->
  (0 < c1 < gp G /\ powm c1 (gq G) (gp G) = 1) /\ (0 < c2 < gp G /\ powm c2 (gq G) (gp G) = 1) /\
  (0 < d1 < gp G /\ powm d1 (gq G) (gp G) = 1) /\ (0 < d2 < gp G /\ powm d2 (gq G) (gp G) = 1).
Proof. intros A. apply remask_accept_iff in A. destruct A as (A & B & C & D & _). now rewrite <- !check_element_spec. Qed.

Theorem decrypt_accept_iff H G c1 hj dj c r :
  decrypt_verify H G c1 hj dj c r = Accept <->
  exists k, hj = Some k /\ check_element G dj = true /\ cp_verify H G dj k c1 (gg G) c r false = Accept.
Proof.
  unfold decrypt_verify. split.
  - destruct hj as [k|]; [|discriminate]. rewrite accept_past, negb_false_iff. eauto.
  - intros (k & -> & B & C). now rewrite B.
Qed.

Section Binding.
  Variables p q g : Z.
  Hypothesis Hp : 1 < p.
  Hypothesis Hq : prime q.
  Hypothesis Hgq : powm g q p = 1.
  Hypothesis Hg1 : g mod p <> 1.

  (* Schnorr / Chaum-Pedersen style recommitment  g^r * X  with an invertible X (= statement^c) *)
  Theorem recommit_inj (r r' X Xi : Z) : 0 <= r -> 0 <= r' -> (X * Xi) mod p = 1 ->
    ((powm g r p * X) mod p = (powm g r' p * X) mod p <-> r mod q = r' mod q).
  Proof.
    intros Hr Hr' HX. rewrite <- (powm_inj_mod_q p q g Hp Hq Hgq Hg1) by assumption. split; [|now intros ->].
    intros E. rewrite <- (mod_cancel p X Xi (powm g r p)), <- (mod_cancel p X Xi (powm g r' p)), E
      by (assumption || apply powm_range; lia). reflexivity.
  Qed.

  (* two different in-range responses never give the same recomputed commitment *)
  Corollary recommit_distinct (r r' X Xi : Z) : 0 <= r < q -> 0 <= r' < q -> r <> r' -> (X * Xi) mod p = 1 ->
    (powm g r p * X) mod p <> (powm g r' p * X) mod p.
  Proof.
    intros Hr Hr' N HX E. apply (recommit_inj r r' X Xi) in E; try lia; try assumption.
    rewrite !Z.mod_small in E by lia. contradiction.
  Qed.
End Binding.

(* hence: replacing an in-range response by another in-range one changes the string that is hashed *)
Theorem key_response_changes_hash_input (G : grp) (foo r r' X Xi : Z) :
  1 < gp G -> prime (gq G) -> powm (gg G) (gq G) (gp G) = 1 -> gg G mod gp G <> 1 ->
  0 <= r < gq G -> 0 <= r' < gq G -> r <> r' -> (X * Xi) mod gp G = 1 ->
  fs_ser (key_hash_input G foo ((powm (gg G) r (gp G) * X) mod gp G)) <>
  fs_ser (key_hash_input G foo ((powm (gg G) r' (gp G) * X) mod gp G)).
Proof.
  intros Hp Hq Hgq Hg1 Hr Hr' N HX E. apply fs_ser_inj in E. unfold key_hash_input in E.
  inversion E as [E']. revert E'. now apply (recommit_distinct (gp G) (gq G) (gg G) Hp Hq Hgq Hg1 r r' X Xi).
Qed.

(* the table walk agrees with the exponentiation on every exponent that fits the table *)
Lemma table_walk_small tl b ax p : 0 < ax -> bits ax <= tl -> table_walk tl b ax p = powm b ax p.
Proof.
  intros H1 H2. unfold table_walk. destruct (Z.eqb_spec ax 0); [lia|].
  destruct (Z.leb_spec (bits ax) tl); [reflexivity|lia].
Qed.

Lemma bits_pos z : 1 <= bits z.
Proof. unfold bits. destruct (Z.eqb_spec z 0); [lia|]. pose proof (Z.log2_nonneg (Z.abs z)). lia. Qed.

Lemma bits_mono a b : 0 <= a <= b -> bits a <= bits b.
Proof.
  intros H. unfold bits. pose proof (Z.log2_nonneg (Z.abs b)) as L.
  destruct (Z.eqb_spec a 0), (Z.eqb_spec b 0); try lia.
  rewrite !Z.abs_eq by lia. pose proof (Z.log2_le_mono a b). lia.
Qed.

Lemma table_walk_fits tl b a p : 1 < p -> 0 <= a -> bits a <= tl -> table_walk tl b a p = powm b a p.
Proof.
  intros Hp Ha Hb. destruct (Z.eq_dec a 0) as [->|N]; [symmetry; now apply Z.mod_1_l|apply table_walk_small; lia].
Qed.

(* a non-negative exponent that fits the table of its base is raised as by mpz_powm *)
Lemma fpowm_fits tl b x p : 1 < p -> 0 <= x -> bits x <= tl -> bits x <= TMCG_MAX_FPOWM_T ->
  fpowm b tl b x p = Some (powm b x p).
Proof.
  intros Hp Hx Hl Hb. unfold fpowm. rewrite Z.eqb_refl, Z.abs_eq, table_walk_fits by assumption. cbn [negb].
  destruct (Z.ltb_spec TMCG_MAX_FPOWM_T (bits x)); [lia|]. destruct (Z.ltb_spec x 0); [lia|reflexivity].
Qed.

Theorem keyint_accept_iff G key m1 c m2 :
  keyint_verify G key m1 c m2 = Accept <->
  check_element G m1 = true /\ check_element G key = true /\ Z.abs m2 < gq G /\
  exists v kc ki, fpowm (gtg G) (tlen G) (gg G) m2 (gp G) = Some v /\ mpz_powm key c (gp G) = Some kc /\
                  invm kc (gp G) = Some ki /\ m1 = (v * ki) mod gp G.
Proof.
  unfold keyint_verify. rewrite refuse_and. do 2 (apply accept_if; [reflexivity|]).
  apply accept_unless; [apply Z.leb_gt|]. split.
  - destruct (fpowm (gtg G) (tlen G) (gg G) m2 (gp G)) as [v|]; [|discriminate].
    destruct (mpz_powm key c (gp G)) as [kc|]; [|discriminate].
    destruct (invm kc (gp G)) as [ki|] eqn:I; [|discriminate].
    rewrite accept_test, Z.eqb_eq. intros E. exists v, kc, ki. auto.
  - intros (v & kc & ki & -> & -> & -> & E). now apply accept_test, Z.eqb_eq.
Qed.

(* the interactive response is bound modulo q, negative representatives included *)
Section KeyInt.
  Variable G : grp.
  Hypothesis Hp : 1 < gp G.
  Hypothesis Hq : prime (gq G).
  Hypothesis Hgq : powm (gg G) (gq G) (gp G) = 1.
  Hypothesis Hg1 : gg G mod gp G <> 1.
  Hypothesis Htab : bits (gq G) <= TMCG_MAX_FPOWM_T.

  Let q_pos : 1 < gq G.
  Proof. destruct Hq. lia. Qed.

  (* a response in (-q, q) is raised as its residue modulo q: for a negative one mpz_invert returns g^(q - |x|),
     the inverse of g^|x| *)
  Theorem fpowm_in_range x v : - gq G < x < gq G ->
    fpowm (gtg G) (tlen G) (gg G) x (gp G) = Some v -> v = powm (gg G) (x mod gq G) (gp G).
  Proof.
    intros Hx. unfold fpowm.
    destruct (Z.eqb_spec (gg G) (gtg G)); cbn [negb]; [|discriminate].
    assert (Ba : bits (Z.abs x) <= bits (gq G)) by (apply bits_mono; lia).
    destruct (Z.ltb_spec TMCG_MAX_FPOWM_T (bits (Z.abs x))); [lia|]. cbv zeta.
    rewrite table_walk_fits by (unfold tlen; lia).
    destruct (Z.ltb_spec x 0) as [Neg|Pos].
    - rewrite Z.abs_neq by lia. rewrite (invm_eq _ (powm (gg G) (gq G + x) (gp G))).
      + intros [= <-]. f_equal. apply (Z.mod_unique_pos x (gq G) (-1)); lia.
      + assumption.
      + apply powm_range; lia.
      + rewrite <- powm_add by lia. now replace (- x + (gq G + x)) with (gq G) by lia.
    - rewrite Z.abs_eq, Z.mod_small by lia. now intros [= <-].
  Qed.

  (* two accepted responses to the same (key, m1, c) are the same residue modulo q: a response of a different
     residue is refused unconditionally (no hash involved) *)
  Theorem keyint_response_bound key m1 c m2 m2' :
    keyint_verify G key m1 c m2 = Accept -> keyint_verify G key m1 c m2' = Accept -> m2 mod gq G = m2' mod gq G.
  Proof.
    intros A B. apply keyint_accept_iff in A, B.
    destruct A as (_ & _ & R & v & kc & ki & F1 & K1 & I1 & E1).
    destruct B as (_ & _ & R' & v' & kc' & ki' & F2 & K2 & I2 & E2).
    rewrite K1 in K2. injection K2 as <-. rewrite I1 in I2. injection I2 as <-.
    apply fpowm_in_range in F1, F2; [|lia|lia]. subst v v'.
    apply invm_inverse in I1 as [_ I1]; [|assumption]. rewrite Z.mul_comm in I1.
    rewrite E1 in E2.
    apply (recommit_inj (gp G) (gq G) (gg G) Hp Hq Hgq Hg1 _ _ ki kc) in E2;
      [|apply Z.mod_pos_bound; lia|apply Z.mod_pos_bound; lia|assumption].
    now rewrite !Z.mod_mod in E2 by lia.
  Qed.

  Corollary keyint_other_residue_rejected key m1 c m2 m2' :
    keyint_verify G key m1 c m2 = Accept -> m2 mod gq G <> m2' mod gq G -> keyint_verify G key m1 c m2' <> Accept.
  Proof. intros A N B. apply N. eapply keyint_response_bound; eassumption. Qed.
End KeyInt.

(* the key share must be a member of the subgroup *)
Corollary keyint_key_member G key m1 c m2 : keyint_verify G key m1 c m2 = Accept ->
  0 < key < gp G /\ powm key (gq G) (gp G) = 1.
Proof. intros A. apply keyint_accept_iff in A. destruct A as (_ & E & _). now apply check_element_spec. Qed.

(* OR proof: the two challenge parts only enter through their sum modulo q and as exponents *)
Theorem or_accept_iff H G y1 y2 g1 g2 c1 c2 r1 r2 :
  or_verify H G y1 y2 g1 g2 c1 c2 r1 r2 = Accept <->
  Z.abs r1 < gq G /\ Z.abs r2 < gq G /\ Z.abs c1 < gq G /\ Z.abs c2 < gq G /\
  check_element G y1 = true /\ check_element G y2 = true /\
  exists a1 b1 a2 b2, mpz_powm y1 c1 (gp G) = Some a1 /\ mpz_powm g1 r1 (gp G) = Some b1 /\
    mpz_powm y2 c2 (gp G) = Some a2 /\ mpz_powm g2 r2 (gp G) = Some b2 /\
    (c1 + c2) mod gq G = H (or_hash_input G g1 y1 g2 y2 ((a1 * b1) mod gp G) ((a2 * b2) mod gp G)) mod gq G.
Proof.
  unfold or_verify. rewrite !refuse_or, refuse_and. do 4 (apply accept_unless; [apply Z.leb_gt|]).
  do 2 (apply accept_if; [reflexivity|]). split.
  - destruct (mpz_powm y1 c1 (gp G)) as [a1|]; [|discriminate].
    destruct (mpz_powm g1 r1 (gp G)) as [b1|]; [|discriminate].
    destruct (mpz_powm y2 c2 (gp G)) as [a2|]; [|discriminate].
    destruct (mpz_powm g2 r2 (gp G)) as [b2|]; [|discriminate].
    rewrite accept_test, Z.eqb_eq. intros E. exists a1, b1, a2, b2. auto 6.
  - intros (a1 & b1 & a2 & b2 & -> & -> & -> & -> & E). now apply accept_test, Z.eqb_eq.
Qed.

Corollary or_member_rules H G y1 y2 g1 g2 c1 c2 r1 r2 : or_verify H G y1 y2 g1 g2 c1 c2 r1 r2 = Accept ->
  (0 < y1 < gp G /\ powm y1 (gq G) (gp G) = 1) /\ (0 < y2 < gp G /\ powm y2 (gq G) (gp G) = 1).
Proof. intros A. apply or_accept_iff in A. destruct A as (_ & _ & _ & _ & A & B & _). now rewrite <- !check_element_spec. Qed.

(* range rules as coded: all four transmitted values lie in (-q, q) *)
Corollary or_range_rules H G y1 y2 g1 g2 c1 c2 r1 r2 : or_verify H G y1 y2 g1 g2 c1 c2 r1 r2 = Accept ->
  - gq G < c1 < gq G /\ - gq G < c2 < gq G /\ - gq G < r1 < gq G /\ - gq G < r2 < gq G.
Proof. intros A. apply or_accept_iff in A. destruct A as (A & B & C & D & _). lia. Qed.

(* in particular a challenge part shifted by q, the same residue, is refused *)
Corollary or_plus_q_rejected H G y1 y2 g1 g2 c1 c2 r1 r2 : 0 < gq G -> 0 <= c1 ->
  or_verify H G y1 y2 g1 g2 (c1 + gq G) c2 r1 r2 <> Accept.
Proof. intros Hq Hc A. apply or_range_rules in A. lia. Qed.
