(* C08 -- All players derive the same common card key.
   Property theorems only: each is a lemma of KeyRingLemmas or an instance of one, and is followed by Print Assumptions.
   H = hash oracle (any function), hbits = its output length in bits, G = (p, q, g);
   wf_params: 1 < p odd, 0 < q, g^q = 1 (mod p), |q| <= TMCG_MAX_FPOWM_T, 0 <= H(.) < 2^hbits. *)
From Coq Require Import ZArith List Permutation Lia.
From LT Require Import Zbase gen_Consts SigmaPrim KeyRingModel KeyRingLemmas.
Import ListNotations.
Local Open Scope Z_scope.

(* any two processing orders of the same accepted contributions give the same h = h_i * product of the keys *)
Theorem C08_update_order_indep : forall H hbits G, wf_params H hbits G -> forall s l l',
  0 <= ks_h s < gp G -> Permutation l l' -> Forall (accepted H hbits G) l ->
  ks_h (run_updates H hbits G s l) = ks_h (run_updates H hbits G s l') /\
  ks_h (run_updates H hbits G s l) = (ks_h s * prodl (map msg_key l)) mod gp G.
Proof. exact update_order_indep. Qed.
Print Assumptions C08_update_order_indep.

(* two players (positions c1, c2 in the list of all contributions) who start from their own key and process
   the others' contributions in arbitrary orders end with the product of all individual keys *)
Theorem C08_all_players_same_key : forall H hbits G, wf_params H hbits G ->
  forall cs pre1 c1 post1 l1 m1 pre2 c2 post2 l2 m2,
  cs = pre1 ++ c1 :: post1 -> cs = pre2 ++ c2 :: post2 ->
  Forall (accepted H hbits G) cs -> Forall (fun c => 0 <= msg_key c < gp G) cs ->
  Permutation l1 (pre1 ++ post1) -> Permutation l2 (pre2 ++ post2) ->
  ks_h (run_updates H hbits G (mkKstate (msg_key c1) m1) l1) = prodl (map msg_key cs) mod gp G /\
  ks_h (run_updates H hbits G (mkKstate (msg_key c2) m2) l2) = prodl (map msg_key cs) mod gp G.
Proof. exact all_players_same_key. Qed.
Print Assumptions C08_all_players_same_key.

(* what honest players publish (any secret, any coin, any oracle) is accepted and lies in [0,p) *)
Theorem C08_honest_contributions_accepted : forall H hbits G, wf_params H hbits G -> forall xs : list (Z * Z),
  let contrib := fun xr : Z * Z =>
    publish_key H G (fst xr mod gq G) (powm (gg G) (fst xr mod gq G) (gp G)) (snd xr) in
  forall xr, In xr xs -> exists m, contrib xr = Some m /\ accepted H hbits G m /\
    msg_key m = powm (gg G) (fst xr mod gq G) (gp G) /\ 0 <= msg_key m < gp G.
Proof.
  intros H hbits G WF xs contrib xr _. pose proof (Z.mod_pos_bound (fst xr) (gq G) (wf_q _ _ _ WF)) as Bx.
  destruct (publish_key_accepted H hbits G WF (fst xr mod gq G) (snd xr)) as (m & E & K & A); [lia|].
  exists m. rewrite K. repeat split; try assumption; apply powm_range; lia || (pose proof (wf_p _ _ _ WF); lia).
Qed.
Print Assumptions C08_honest_contributions_accepted.

(* GenerateKey really produces that key: x = coin mod q, h_i = g^x, h = h_i *)
Theorem C08_generate_key : forall H hbits G, wf_params H hbits G -> forall raw old,
  generate_key H G raw old =
    Some (raw mod gq G, powm (gg G) (raw mod gq G) (gp G), H [powm (gg G) (raw mod gq G) (gp G)],
          mkKstate (powm (gg G) (raw mod gq G) (gp G)) (ks_hj old)).
Proof. exact generate_key_spec. Qed.
Print Assumptions C08_generate_key.

(* a refused contribution leaves h and the stored keys unchanged *)
Theorem C08_update_reject_unchanged : forall H hbits G s good m,
  fst (update_key H hbits G s good m) <> Accept -> snd (update_key H hbits G s good m) = s.
Proof. exact update_reject_unchanged. Qed.
Print Assumptions C08_update_reject_unchanged.

Theorem C08_update_accept_iff : forall H hbits G s good m,
  fst (update_key H hbits G s good m) = Accept <-> good = true /\ accepted H hbits G m.
Proof. exact update_accept_iff. Qed.
Print Assumptions C08_update_accept_iff.

(* refusal of: a key outside the group, a response out of range, an oversized challenge, a challenge that is
   not the hash of the public inputs and any commitment *)
Theorem C08_malformed_refused : forall H hbits G foo c r,
  (check_element G foo = false \/ gq G <= Z.abs r \/ hbits < sizeinbase2 c \/
   (forall t, c <> H [gp G; gq G; gg G; foo; t])) ->
  verify_nizk H hbits G foo c r <> Accept.
Proof. exact verify_refuses. Qed.
Print Assumptions C08_malformed_refused.

(* removing an accepted contribution that was not stored before restores h and the stored keys *)
Theorem C08_remove_restores : forall H hbits G, wf_params H hbits G -> forall s m,
  0 <= ks_h s < gp G -> accepted H hbits G m -> map_get (H [msg_key m]) (ks_hj s) = None ->
  remove_key H G (snd (update_key H hbits G s true m)) true (msg_key m) = (true, s).
Proof. exact remove_restores. Qed.
Print Assumptions C08_remove_restores.

Theorem C08_remove_absent_unchanged : forall H G s good k,
  (good = false \/ map_get (H [k]) (ks_hj s) = None) -> remove_key H G s good k = (false, s).
Proof. exact remove_absent_unchanged. Qed.
Print Assumptions C08_remove_absent_unchanged.

(* every interleaving of add / remove in which no accepted key is added while its fingerprint is stored keeps
   h = own key * product of the stored keys *)
Theorem C08_interleaving_invariant : forall H hbits G, wf_params H hbits G -> forall h0 ops s,
  ring_inv H G h0 s -> script_ok H hbits G s ops -> ring_inv H G h0 (fold_left (step H hbits G) ops s).
Proof. exact interleaving_invariant. Qed.
Print Assumptions C08_interleaving_invariant.

Theorem C08_interleaving_start : forall H G h0,
  0 <= h0 < gp G -> ring_inv H G h0 (mkKstate h0 []).
Proof. exact ring_inv_init. Qed.
Print Assumptions C08_interleaving_start.

(* boundary (DESIGN O4): "removal restores" is REFUTED when the same contribution was added twice: it is
   multiplied in twice but stored once; one removal empties the store while h still contains the key, and a
   second removal is refused *)
Theorem C08_remove_restores_duplicate_refuted :
  exists H hbits G s m, wf_params H hbits G /\ accepted H hbits G m /\ 0 <= ks_h s < gp G /\
    let s2 := run_updates H hbits G s [m; m] in
    let r1 := remove_key H G s2 true (msg_key m) in
    let r2 := remove_key H G (snd r1) true (msg_key m) in
    fst r1 = true /\ ks_hj (snd r1) = ks_hj s /\ ks_h (snd r1) <> ks_h s /\ fst r2 = false /\ snd r2 = snd r1.
Proof. exact duplicate_add_not_restored. Qed.
Print Assumptions C08_remove_restores_duplicate_refuted.

(* non-vacuity: a concrete well-formed parameter set and an accepted contribution *)
Example C08_nonvacuous_wf : wf_params dup_H 8 dup_G.
Proof. exact dup_wf. Qed.
Example C08_nonvacuous_accepted : accepted dup_H 8 dup_G dup_msg /\ ring_inv dup_H dup_G 2 dup_s0.
Proof. split; [vm_compute; reflexivity|]. apply (ring_inv_init dup_H dup_G). cbn. lia. Qed.
