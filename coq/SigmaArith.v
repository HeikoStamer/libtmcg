(* SigmaArith: facts about the arithmetic helpers of SigmaPrim / Zbase used by the C03 and C08 proofs:
   the Schnorr identity in a subgroup whose generator satisfies g^q = 1 (q need not be prime here), the elements
   a with 0 < a < p and a^q = 1 that CheckElement / TestMembership accept, and correctness of the fixed-base table walk. *)
From Coq Require Import ZArith Znumtheory Lia List Bool ZifyBool.
From LT Require Import Zbase gen_Consts SigmaPrim.
Import ListNotations.
Local Open Scope Z_scope.

Lemma abs_below r q : 0 <= r < q -> (q <=? Z.abs r) = false.
Proof. lia. Qed.

Lemma srandomm_range raw q : 0 < q -> 0 <= srandomm raw q < q.
Proof. apply Z.mod_pos_bound. Qed.

Lemma mpz_powm_nonneg b e p : 0 <= e -> mpz_powm b e p = Some (powm b e p).
Proof. intros He. unfold mpz_powm. now destruct (Z.ltb_spec e 0); [lia|]. Qed.

Section Group.
  Variables p q : Z.
  Hypothesis Hp : 1 < p.
  Hypothesis Hq : 0 < q.

  (* the heart of every Schnorr-style completeness proof: a response r = w - c x (mod q) gives g^r * (g^x)^c = g^w *)
  Lemma schnorr_identity g x c w r : powm g q p = 1 -> 0 <= x -> 0 <= c -> 0 <= w -> 0 <= r ->
    (r + c * x) mod q = w mod q -> (powm g r p * powm (powm g x p) c p) mod p = powm g w p.
  Proof.
    intros Hg Hx Hc Hw Hr E. rewrite <- powm_mul, <- powm_add by nia.
    apply (powm_cong p q g Hp Hq Hg); [nia|lia|]. rewrite <- E. f_equal. ring.
  Qed.

  (* what CheckElement and TestMembership test *)
  Definition in_group (a : Z) : Prop := 0 < a < p /\ powm a q p = 1.

  Lemma in_group_1 : in_group 1.
  Proof. split; [lia|]. rewrite powm_1_l by lia. apply Z.mod_1_l, Hp. Qed.

  Lemma in_group_pow b e : powm b q p = 1 -> 0 <= e -> in_group (powm b e p).
  Proof.
    intros Hb He. split; [exact (powm_nonzero p q b Hp Hq Hb e He)|].
    rewrite <- powm_mul by lia. now apply (powm_order_mult p q b).
  Qed.

  Lemma in_group_mul a b : in_group a -> in_group b -> in_group ((a * b) mod p).
  Proof.
    intros [_ Ea] [_ Eb].
    assert (E : powm ((a * b) mod p) q p = 1) by (rewrite powm_base_mod, powm_mul_base, Ea, Eb by lia; apply Z.mod_1_l; lia).
    split; [|exact E]. pose proof (powm_nonzero p q _ Hp Hq E 1 ltac:(lia)) as N. now rewrite powm_1_r, Zmod_mod in N.
  Qed.

  Lemma in_group_inverse a : in_group a -> exists i, invm a p = Some i /\ 0 <= i < p /\ (a * i) mod p = 1.
  Proof.
    intros [Ra Ea]. pose proof (powm_inverse p q a Hp Hq Ea 1 ltac:(lia)) as I.
    rewrite powm_1_r, Z.mod_small in I by lia. eexists. split; [exact I|]. now apply invm_inverse.
  Qed.
End Group.

Lemma check_element_spec G a : check_element G a = true <-> in_group (gp G) (gq G) a.
Proof. unfold check_element, in_group. rewrite !andb_true_iff. lia. Qed.

Lemma fpowm_pos_spec p : 0 < p -> forall e cur idx t res,
  (idx + Pos.size_nat e <= t)%nat ->
  fpowm_pos cur idx t e res p = (res * cur ^ Zpos e) mod p.
Proof.
  intros Hp. induction e as [e IH|e IH|]; intros cur idx t res Hs; cbn [fpowm_pos Pos.size_nat] in *;
    rewrite ?(proj2 (Nat.ltb_lt idx t)) by lia.
  - rewrite IH, Pos2Z.inj_xI, Z.pow_add_r, Z.pow_1_r, Z.pow_mul_r, Z.pow_2_r by lia.
    rewrite <- Zmult_mod_idemp_r, pow_mod_base, Zmult_mod_idemp_r, Zmult_mod_idemp_l by lia. f_equal. ring.
  - rewrite IH, Pos2Z.inj_xO, Z.pow_mul_r, Z.pow_2_r by lia.
    now rewrite <- Zmult_mod_idemp_r, pow_mod_base, Zmult_mod_idemp_r by lia.
  - now rewrite Z.pow_1_r.
Qed.

Lemma size_nat_log2 e : Z.of_nat (Pos.size_nat e) = Z.log2 (Zpos e) + 1.
Proof.
  induction e as [e IH|e IH|]; cbn [Pos.size_nat]; [| |reflexivity].
  - rewrite Nat2Z.inj_succ, IH. rewrite Pos2Z.inj_xI. rewrite Z.log2_succ_double by lia. lia.
  - rewrite Nat2Z.inj_succ, IH. rewrite Pos2Z.inj_xO. rewrite Z.log2_double by lia. lia.
Qed.

Lemma sizeinbase2_pos x : 1 <= sizeinbase2 x.
Proof. unfold sizeinbase2. destruct (x =? 0); [lia|]. pose proof (Z.log2_nonneg (Z.abs x)). lia. Qed.

Lemma sizeinbase2_bound c b : 1 <= b -> 0 <= c < 2 ^ b -> sizeinbase2 c <= b.
Proof.
  intros Hb Hc. unfold sizeinbase2. destruct (c =? 0) eqn:C0; [lia|].
  rewrite Z.abs_eq by lia. assert (Z.log2 c < b); [|lia]. apply Z.log2_lt_pow2; lia.
Qed.

Lemma sizeinbase2_mono x y : 0 <= x <= y -> sizeinbase2 x <= sizeinbase2 y.
Proof.
  intros H. unfold sizeinbase2. destruct (x =? 0) eqn:X0; destruct (y =? 0) eqn:Y0; try lia.
  - pose proof (Z.log2_nonneg (Z.abs y)). lia.
  - rewrite !Z.abs_eq by lia. pose proof (Z.log2_le_mono x y ltac:(lia)). lia.
Qed.

(* exponents below q never leave the valid part of the table *)
Lemma fpowm_loop_spec b q x p : 1 < p -> 0 < q -> 0 <= x < q -> sizeinbase2 q <= TMCG_MAX_FPOWM_T ->
  fpowm_loop (precompute b q) x p = powm b x p.
Proof.
  intros Hp Hq Hx Hs. unfold fpowm_loop. rewrite Z.abs_eq by lia.
  destruct x as [|e|e]; [cbn; rewrite Z.mod_1_l; lia| |lia].
  cbn [precompute ft_base ft_t]. rewrite fpowm_pos_spec; [|lia|].
  - rewrite Z.mul_1_l. cbn [powm]. now rewrite powm_pos_spec by lia.
  - assert (Z.of_nat (Pos.size_nat e) <= Z.min (sizeinbase2 q) TMCG_MAX_FPOWM_T); [|lia].
    rewrite size_nat_log2. pose proof (sizeinbase2_mono (Z.pos e) q ltac:(lia)) as M.
    unfold sizeinbase2 at 1 in M. cbn [Z.eqb Z.abs] in M. lia.
Qed.

Lemma size_small x q : 0 <= x < q -> sizeinbase2 q <= TMCG_MAX_FPOWM_T -> (TMCG_MAX_FPOWM_T <? sizeinbase2 x) = false.
Proof. intros Hx Hs. pose proof (sizeinbase2_mono x q ltac:(lia)). lia. Qed.

Lemma fpowm_spec b q x p : 1 < p -> 0 < q -> 0 <= x < q -> sizeinbase2 q <= TMCG_MAX_FPOWM_T ->
  fpowm (precompute b q) b x p = Some (powm b x p).
Proof.
  intros Hp Hq Hx Hs. unfold fpowm. change (ft_base (precompute b q)) with b.
  rewrite Z.eqb_refl, (size_small x q), fpowm_loop_spec by assumption. cbn [negb].
  destruct (x <? 0) eqn:X; [lia|reflexivity].
Qed.

Lemma fspowm_spec b q x p : 1 < p -> 0 < q -> powm b q p = 1 -> 0 <= x < q -> sizeinbase2 q <= TMCG_MAX_FPOWM_T ->
  fspowm (precompute b q) b x p = Some (powm b x p).
Proof.
  intros Hp Hq Hb Hx Hs. unfold fspowm. change (ft_base (precompute b q)) with b.
  rewrite Z.eqb_refl, (size_small x q), fpowm_loop_spec by assumption. cbn [negb].
  rewrite (powm_inverse p q b Hp Hq Hb x) by lia.
  destruct (x <? 0) eqn:X; [lia|].
  rewrite Z.mod_small; [reflexivity|apply powm_range; lia].
Qed.

Lemma spowm_spec b q x p : 1 < p -> Z.odd p = true -> 0 < q -> powm b q p = 1 -> 0 <= x ->
  spowm b x p = Some (powm b x p).
Proof.
  intros Hp Hodd Hq Hb Hx. unfold spowm. rewrite <- Z.negb_odd, Hodd. cbn [negb].
  destruct (x =? 0) eqn:X0.
  - assert (x = 0) by lia. subst x.
    rewrite (powm_inverse p q b Hp Hq Hb 1) by lia. cbn [Z.ltb Z.compare]. cbn [powm]. reflexivity.
  - rewrite Z.abs_eq by lia. rewrite (powm_inverse p q b Hp Hq Hb x) by lia.
    destruct (x <? 0) eqn:X; [lia|]. rewrite Z.mod_small; [reflexivity|apply powm_range; lia].
Qed.
