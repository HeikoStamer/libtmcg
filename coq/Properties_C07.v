(* C07 -- Shuffle permutations and random residues are uniform.
   Uniformity is a counting statement about the map  coins |-> result  (libgcrypt's bytes are taken to be uniform
   and independent: that is the trusted assumption).  Each property theorem is `exact <lemma>` + Print Assumptions; the
   Examples at the end are concrete instances. *)
From Coq Require Import ZArith NArith List Bool Lia Permutation.
From LT Require Import gen_Consts SamplerModel SamplerLemmas ShuffleModel ShuffleLemmas ShuffleUniform.
Import ListNotations.
Local Open Scope N_scope.

(* tmcg_mpz_*random_mod: the machine arithmetic (incl. the wrap-around of (div+1)*m for powers of two) computes (2^64 / m) * m - 1 *)
Theorem C07_nomodbias_max : forall m, 2 <= m < W -> nomodbias_max m = (W / m) * m - 1.
Proof. exact nomodbias_max_spec. Qed.
Print Assumptions C07_nomodbias_max.

Theorem C07_nomodbias_accept_iff : forall m w, 2 <= m < W -> (nomodbias_accept m w = true <-> w < (W / m) * m).
Proof. exact nomodbias_accept_iff. Qed.
Print Assumptions C07_nomodbias_accept_iff.

(* every residue t < m has exactly 2^64 / m accepted raw words: (k, t) |-> k*m + t is a bijection from
   [0, 2^64/m) x [0, m) onto the accepted words, with inverse w |-> (w / m, w mod m) *)
Theorem C07_nomodbias_fibre_forward : forall m w, 2 <= m < W -> w < W -> nomodbias_accept m w = true ->
  w / m < W / m /\ w mod m < m /\ w = (w / m) * m + w mod m.
Proof. exact nomodbias_fibre_forward. Qed.
Print Assumptions C07_nomodbias_fibre_forward.

Theorem C07_nomodbias_fibre_backward : forall m k t, 2 <= m < W -> k < W / m -> t < m ->
  k * m + t < W /\ nomodbias_accept m (k * m + t) = true /\ (k * m + t) / m = k /\ (k * m + t) mod m = t.
Proof. exact nomodbias_fibre_backward. Qed.
Print Assumptions C07_nomodbias_fibre_backward.

Theorem C07_nomodbias_residue_words : forall m t w, 2 <= m < W -> t < m ->
  ((w < W /\ nomodbias_accept m w = true /\ w mod m = t) <-> exists k, k < W / m /\ w = k * m + t).
Proof. exact nomodbias_residue_words. Qed.
Print Assumptions C07_nomodbias_residue_words.

Theorem C07_nomodbias_accept_half : forall m, 2 <= m < W -> W < 2 * ((W / m) * m).
Proof. exact nomodbias_accept_half. Qed.
Print Assumptions C07_nomodbias_accept_half.

(* the 8 random bytes and the 2^64 words correspond one to one *)
Theorem C07_word_bytes_bijection :
  (forall bs, is_bytes bs -> length bs = 8%nat -> le_value bs < W) /\
  (forall bs bs', is_bytes bs -> is_bytes bs' -> length bs = 8%nat -> length bs' = 8%nat -> le_value bs = le_value bs' -> bs = bs') /\
  (forall w, w < W -> exists bs, is_bytes bs /\ length bs = 8%nat /\ le_value bs = w).
Proof. exact word_bytes_bijection. Qed.
Print Assumptions C07_word_bytes_bijection.

(* the loop over the coin stream: first word accepted -> returned reduced; rejected -> skipped *)
Theorem C07_random_mod_accept : forall m b r, 2 <= m -> length b = 8%nat -> nomodbias_accept m (le_value b) = true ->
  random_mod m (b ++ r) = Ret (le_value b mod m, r).
Proof. exact random_mod_accept. Qed.
Print Assumptions C07_random_mod_accept.

Theorem C07_random_mod_reject : forall m b r, 2 <= m -> length b = 8%nat -> nomodbias_accept m (le_value b) = false ->
  random_mod m (b ++ r) = random_mod m r.
Proof. exact random_mod_reject. Qed.
Print Assumptions C07_random_mod_reject.

(* no drawn value ever lies outside its range *)
Theorem C07_random_mod_range : forall m s c r, random_mod m s = Ret (c, r) ->
  2 <= m /\ c < m /\ exists pre, s = pre ++ r /\ (length pre >= 8)%nat.
Proof. exact random_mod_range. Qed.
Print Assumptions C07_random_mod_range.

Theorem C07_random_mod_outcomes : forall m s,
  match random_mod m s with Ret _ | NeedCoins => 2 <= m | Throw => m < 2 | _ => False end.
Proof. exact random_mod_outcomes. Qed.
Print Assumptions C07_random_mod_outcomes.

(* the n! admissible coin vectors (c_i < n - i) are mapped injectively to permutations of 0..n-1 *)
Theorem C07_fisher_yates_uniform : forall n, (1 <= n)%nat ->
  let dom := all_coins (n - 1) 0 n in
  length dom = fact n /\ NoDup dom /\ (forall cs, In cs dom <-> admissible (n - 1) 0 n cs) /\
  (forall cs, In cs dom -> exists pi, fisher_yates n cs = Some pi /\ Permutation (iota n) pi) /\
  (forall cs cs', In cs dom -> In cs' dom -> fisher_yates n cs = fisher_yates n cs' -> cs = cs') /\
  NoDup (map (fisher_yates n) dom) /\ length (map (fisher_yates n) dom) = fact n.
Proof. exact fisher_yates_uniform. Qed.
Print Assumptions C07_fisher_yates_uniform.

(* ... and onto: every permutation of 0..n-1 is the image of an admissible coin vector (so of exactly one) *)
Theorem C07_fisher_yates_surj : forall n target, (1 <= n)%nat -> Permutation (iota n) target ->
  exists cs, admissible (n - 1) 0 n cs /\ fisher_yates n cs = Some target.
Proof. exact fisher_yates_surj. Qed.
Print Assumptions C07_fisher_yates_surj.

(* the generator on a coin stream = the sampler's coins (moduli n, n-1, .., 2) fed to that map *)
Theorem C07_random_permutation_fast_coins : forall n s pi s', random_permutation_fast n s = Ret (pi, s') ->
  exists cs, draw_coins (n - 1) 0 n s = Ret (cs, s') /\ admissible (n - 1) 0 n cs /\ fisher_yates n cs = Some pi.
Proof. exact random_permutation_fast_coins. Qed.
Print Assumptions C07_random_permutation_fast_coins.

Theorem C07_rotation_inj : forall n r r', small_n n -> r < N.of_nat n -> r' < N.of_nat n -> rotation n r = rotation n r' -> r = r'.
Proof. exact rotation_inj. Qed.
Print Assumptions C07_rotation_inj.

Theorem C07_rotation_offset_inj : forall n r r', small_n n -> r < N.of_nat n -> r' < N.of_nat n ->
  rotation_offset n r = rotation_offset n r' -> r = r'.
Proof. exact rotation_offset_inj. Qed.
Print Assumptions C07_rotation_offset_inj.

Theorem C07_rotation_offset_surj : forall n o, small_n n -> o < N.of_nat n -> exists r, r < N.of_nat n /\ rotation_offset n r = o.
Proof. exact rotation_offset_surj. Qed.
Print Assumptions C07_rotation_offset_surj.

Theorem C07_random_rotation : forall n s o pi s', random_rotation n s = Ret ((o, pi), s') ->
  (2 <= n)%nat /\ exists r, r < N.of_nat n /\ pi = rotation n r /\ o = rotation_offset n r.
Proof. exact random_rotation_spec. Qed.
Print Assumptions C07_random_rotation.

Theorem C07_grandomm_range : forall m s v r, grandomm m s = Ret (v, r) ->
  m <> 0%Z /\ (0 <= v < Z.abs m)%Z /\ exists b, s = b ++ r /\ length b = N.to_nat (randomm_nbytes m) /\
  v = Z.of_N (be_value b mod Z.abs_N m).
Proof. exact grandomm_range. Qed.
Print Assumptions C07_grandomm_range.

Theorem C07_randomm_space : forall m, W * Z.abs_N m <= 256 ^ randomm_nbytes m.
Proof. exact randomm_space. Qed.
Print Assumptions C07_randomm_space.

(* among the 256^nbytes raw values every residue has floor or ceil of N/|m| preimages, and N/|m| >= 2^64 *)
Theorem C07_grandomm_count : forall m t v, m <> 0%Z -> t < Z.abs_N m ->
  let n := 256 ^ randomm_nbytes m in let a := Z.abs_N m in
  ((v < n /\ v mod a = t) <-> exists k, k < fibre_count n a t /\ v = k * a + t) /\
  n / a <= fibre_count n a t <= n / a + 1 /\ W <= n / a.
Proof. exact grandomm_count. Qed.
Print Assumptions C07_grandomm_count.

Theorem C07_bytes_value_bijection :
  (forall bs, is_bytes bs -> be_value bs < 256 ^ N.of_nat (length bs)) /\
  (forall bs bs', is_bytes bs -> is_bytes bs' -> length bs = length bs' -> be_value bs = be_value bs' -> bs = bs') /\
  (forall k v, v < 256 ^ N.of_nat k -> exists bs, is_bytes bs /\ length bs = k /\ be_value bs = v).
Proof. exact (conj be_value_lt (conj be_value_inj be_value_surj)). Qed.
Print Assumptions C07_bytes_value_bijection.

Theorem C07_grandomb_range : forall size s v r, grandomb size s = Ret (v, r) ->
  0 < size /\ v < 2 ^ size /\ exists b, s = b ++ r /\ length b = N.to_nat ((size + 7) / 8) /\ v = be_value b mod 2 ^ size.
Proof. exact grandomb_range. Qed.
Print Assumptions C07_grandomb_range.

Theorem C07_grandomb_count : forall size t, 0 < size -> t < 2 ^ size ->
  let n := 256 ^ ((size + 7) / 8) in fibre_count n (2 ^ size) t = n / 2 ^ size /\ n mod 2 ^ size = 0.
Proof. exact grandomb_count. Qed.
Print Assumptions C07_grandomb_count.

Theorem C07_fibre_count : forall n m t v, 0 < m -> t < m ->
  ((v < n /\ v mod m = t) <-> exists k, k < fibre_count n m t /\ v = k * m + t).
Proof. exact fibre_count_spec. Qed.
Print Assumptions C07_fibre_count.

(* tmcg_mpz_ssrandomm_cache_init / _cache: every cached value is an ordinary residue draw modulo the cache modulus
   from its own block of random bytes (so C07_grandomm_count applies to it), all in range *)
Theorem C07_cache_init : forall n m s c s', cache_init n m s = Ret (c, s') ->
  (1 <= n <= Z.to_nat TMCG_MAX_SSRANDOMM_CACHE)%nat /\ c_mod c = m /\ c_avail c = n /\ length (c_vals c) = n /\ cache_wf c /\
  exists chunks, s = concat chunks ++ s' /\ Forall (fun b => length b = N.to_nat (randomm_nbytes m)) chunks /\
                 c_vals c = map (fun b => Z.of_N (be_value b mod Z.abs_N m)) chunks.
Proof. exact cache_init_spec. Qed.
Print Assumptions C07_cache_init.

(* a query for modulus m: in range for m in BOTH branches; a hit (same modulus, entry left) hands out a not yet used
   cached draw and consumes it, otherwise the answer is a fresh draw modulo m (not modulo the cache modulus) *)
Theorem C07_cache_get : forall c m s v c' s', cache_wf c -> cache_get c m s = Ret ((v, c'), s') ->
  in_range_m m v /\ cache_wf c' /\
  ((m = c_mod c /\ (0 < c_avail c)%nat /\ nth_error (c_vals c) (c_avail c - 1) = Some v /\
    c_avail c' = (c_avail c - 1)%nat /\ c_vals c' = c_vals c /\ c_mod c' = c_mod c /\ s' = s) \/
   ((m <> c_mod c \/ c_avail c = O) /\ grandomm m s = Ret (v, s') /\ c' = c)).
Proof. exact cache_get_spec. Qed.
Print Assumptions C07_cache_get.

Theorem C07_cache_run_range : forall n q ms s vs s', cache_run n q ms s = Ret (vs, s') -> Forall2 in_range_m ms vs.
Proof. exact cache_run_range. Qed.
Print Assumptions C07_cache_run_range.

Example C07_max_3 : nomodbias_max 3 = 18446744073709551614.
Proof. vm_compute. reflexivity. Qed.
Example C07_max_pow2 : nomodbias_max 4096 = 18446744073709551615.
Proof. vm_compute. reflexivity. Qed.
Example C07_max_big : nomodbias_max 9223372036854775809 = 9223372036854775808.
Proof. vm_compute. reflexivity. Qed.
Example C07_reject_example : random_mod 3 ([255;255;255;255;255;255;255;255] ++ [4;0;0;0;0;0;0;0]) = Ret (1, []).
Proof. vm_compute. reflexivity. Qed.
Example C07_fy_example : fisher_yates 4 [2; 0; 1] = Some [2; 1; 3; 0].
Proof. vm_compute. reflexivity. Qed.
Example C07_all_coins_3 : all_coins 2 0 3 = [[0;0];[0;1];[1;0];[1;1];[2;0];[2;1]].
Proof. vm_compute. reflexivity. Qed.
Example C07_randomm_example : grandomm 11 [0;0;0;0;0;0;0;1;7] = Ret (10%Z, []).
Proof. vm_compute. reflexivity. Qed.
Example C07_cache_example :
  cache_run 2 11 [11; 5; 11; 11]%Z (repeat 0 8 ++ [7] ++ repeat 0 8 ++ [9] ++ repeat 0 8 ++ [9] ++ repeat 0 8 ++ [10])
  = Ret ([9; 4; 7; 10]%Z, []).
Proof. vm_compute. reflexivity. Qed.
