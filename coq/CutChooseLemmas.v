(* CutChooseLemmas (C03): completeness of the VTMF cut-and-choose stack equality proof, for every stack size, every number of
   iterations, every bijective (resp. cyclic) secret with exponents below q, every coin string of prover and verifier, every
   commitment oracle.  Uses glue_ok / glue_perm / create_stack_secret_spec of ShuffleLemmas (C02). *)
From Coq Require Import ZArith NArith List Bool Lia ZifyBool Permutation.
From LT Require Import gen_Consts Zbase CodecModel SamplerModel ShuffleModel ShuffleLemmas SigmaPrim SigmaArith CutChooseModel.
Import ListNotations.
Local Open Scope Z_scope.

(* what "honest secret" means: a bijection on the positions (a rotation if cyclic), exponents in [0,q) *)
Definition valid_secret (q : Z) (n : nat) (cyclic : bool) (ss : vsecret) : Prop :=
  length ss = n /\ Permutation (map fst ss) (iota n) /\ Forall (fun pr => Z.of_N (snd pr) < q) ss /\
  (cyclic = true -> exists r, (r < N.of_nat n)%N /\ map fst ss = rotation n r).

Lemma cyclic_ok_shift (idx : list N) (c : N) : (c < N.of_nat (length idx))%N ->
  (forall j, (j < length idx)%nat -> nth_error idx j = Some ((c + N.of_nat j) mod N.of_nat (length idx))%N) ->
  cyclic_ok idx = true.
Proof.
  intros Hc H. destruct idx as [|c0 rest]; [reflexivity|].
  assert (H0 := H O ltac:(cbn; lia)). cbn [nth_error] in H0. injection H0 as H0.
  rewrite N.add_0_r, N.mod_small in H0 by assumption.
  unfold cyclic_ok. apply forallb_forall. intros j Hj. apply in_seq in Hj.
  rewrite (H j) by (cbn [length] in *; lia). rewrite H0. apply N.eqb_refl.
Qed.

(* a list that is a shift by r position by position is the rotation by r *)
Lemma rotation_ext idx n r : small_n n -> (r < N.of_nat n)%N -> length idx = n ->
  (forall i, (i < n)%nat -> nth_error idx i = Some ((r + N.of_nat i) mod N.of_nat n)%N) -> idx = rotation n r.
Proof.
  intros Sm Hr L Hi. apply (nth_ext _ _ 0%N 0%N); [now rewrite rotation_length|]. rewrite L. intros i Hlt.
  now rewrite (nth_error_nth _ _ _ (Hi i Hlt)), (nth_error_nth _ _ _ (rotation_nth n r i Sm Hr Hlt)).
Qed.

Section CC.
  Variable Hc : list vcard -> Z.
  Variable G : group.
  Variable h : Z.
  Let p := gp G.
  Let q := gq G.
  Let g := gg G.
  Hypothesis Hp : 1 < p.
  Hypothesis Hq : 0 < q.
  Hypothesis Hg : powm g q p = 1.
  Hypothesis Hh : powm h q p = 1.

  Lemma cmask_cmask c r1 r2 : cmask G h (cmask G h c r1) r2 = cmask G h c (cadd G r1 r2).
  Proof. exact (vmaskN_vmaskN p q g h Hp Hq Hg Hh c r1 r2). Qed.

  Lemma secN_secZ ss : secN (secZ ss) = ss.
  Proof.
    unfold secN, secZ. rewrite map_map. rewrite <- (map_id ss) at 2. apply map_ext. intros [a r]. cbn. now rewrite N2Z.id.
  Qed.

  Lemma fst_secZ ss : map fst (secZ ss) = map fst ss.
  Proof. unfold secZ. rewrite map_map. reflexivity. Qed.

  Lemma len_secZ ss : length (secZ ss) = length ss.
  Proof. unfold secZ. apply map_length. Qed.

  Lemma range_secZ ss : Forall (fun pr => Z.of_N (snd pr) < q) ss ->
    existsb (fun pr : N * Z => (snd pr <? 0) || (q <=? snd pr)) (secZ ss) = false.
  Proof.
    intros F. apply not_true_is_false. intros E. apply existsb_exists in E. destruct E as [[a z] [I E]].
    unfold secZ in I. apply in_map_iff in I. destruct I as [[a' r] [Eq I]]. cbn in Eq. injection Eq as <- <-.
    rewrite Forall_forall in F. specialize (F _ I). cbn in *. lia.
  Qed.

  Lemma verify_accepts (s s2 : list vcard) n cyclic (bit : bool) (resp : vsecret) s4 :
    valid_secret q n cyclic resp -> length s = n -> (n <= max_cards)%nat ->
    cmix G h (if bit then s2 else s) resp = Ret s4 ->
    verify_round Hc G h s s2 cyclic bit (Hc s4) (secZ resp) = Ret true.
  Proof.
    intros (L & P & R & Cy) Ls Hn M. unfold verify_round. fold q.
    assert (PC : perm_check (secZ resp) (N.of_nat (length (secZ resp))) = true).
    { apply import_check_iff. rewrite fst_secZ, len_secZ, L. exact P. }
    rewrite PC. cbn [negb]. rewrite len_secZ, L, Ls, Nat.eqb_refl. cbn [negb].
    rewrite (range_secZ resp R). rewrite secN_secZ. fold (cmix G h (if bit then s2 else s) resp). rewrite M. cbn [bind].
    rewrite Z.eqb_refl. cbn [negb]. rewrite fst_secZ.
    destruct cyclic; cbn [andb]; [|reflexivity].
    destruct (Cy eq_refl) as (r & Hr & E). rewrite E.
    rewrite (cyclic_ok_shift _ r); rewrite ?rotation_length; [reflexivity|assumption|].
    intros j Hj. apply rotation_nth; try assumption. now apply max_cards_small.
  Qed.

  Lemma glue_valid n cyclic sigma pi gam : (n <= max_cards)%nat ->
    valid_secret q n cyclic sigma -> valid_secret q n cyclic pi -> cglue G sigma pi = Ret gam ->
    valid_secret q n cyclic gam.
  Proof.
    intros Hn (Ls & Ps & Rs & Cs) (Lp & Pp & Rp & Cp) Gl.
    assert (Lg : length gam = n) by (rewrite (glue_length _ _ _ _ _ Gl); lia).
    split; [assumption|]. split; [eapply glue_perm; eassumption|]. split.
    - apply Forall_forall. intros [a r] I. apply In_nth_error in I. destruct I as [i Ei].
      pose proof (nth_error_lt _ _ _ Ei) as Hi. rewrite Lg in Hi.
      destruct (proj2 (glue_nth _ _ _ _ _ n i Gl Ls Hn Hi)) as (r1 & r2 & _ & _ & E).
      rewrite nth_error_map, Ei in E. injection E as ->. cbn [snd]. unfold cadd, vadd. fold q.
      pose proof (Z.mod_pos_bound (Z.of_N r1 + Z.of_N r2) q Hq). rewrite Z2N.id; lia.
    - intros ->. destruct (Cs eq_refl) as (r1 & H1 & E1). destruct (Cp eq_refl) as (r2 & H2 & E2).
      pose proof (max_cards_small n Hn) as Sm.
      assert (Hr : ((r1 + r2) mod N.of_nat n < N.of_nat n)%N) by (apply N.mod_lt; lia).
      exists ((r1 + r2) mod N.of_nat n)%N. split; [assumption|].
      apply rotation_ext; [assumption..|now rewrite map_length|]. intros i Hi0.
      destruct (proj1 (glue_nth _ _ _ _ _ n i Gl Ls Hn Hi0)) as (b & a & Eb & Ea & ->). f_equal.
      (* b = (r2 + i) mod n, a = (r1 + b) mod n *)
      rewrite E2, rotation_nth in Eb by assumption. injection Eb as Eb.
      apply nthN_spec in Ea. destruct Ea as (Hb & Ea). rewrite map_length in Hb.
      rewrite E1, rotation_nth in Ea by (try assumption; lia). injection Ea as Ea. rewrite N2Nat.id in Ea.
      subst a b. rewrite N.add_mod_idemp_r by lia. rewrite N.add_mod_idemp_l by lia. f_equal. lia.
  Qed.

  (* completeness of one iteration, both challenge values *)
  Theorem round_complete s s2 n cyclic sigma pi bit : length s = n -> (n <= max_cards)%nat ->
    valid_secret q n cyclic sigma -> valid_secret q n cyclic pi -> cmix G h s sigma = Ret s2 ->
    exists cr, prove_round Hc G h s2 sigma pi bit = Ret cr /\
               verify_round Hc G h s s2 cyclic bit (fst cr) (secZ (snd cr)) = Ret true.
  Proof.
    intros Ls Hn Vs Vp M.
    pose proof Vs as (Lsg & Psg & Rsg & Csg). pose proof Vp as (Lpi & Ppi & Rpi & Cpi).
    destruct (glue_ok vcard N (cmask G h) (cadd G) cmask_cmask s sigma pi n Ls Lsg Lpi Hn Psg (proj2 (proj2 (proj2 (perm_iota_facts pi n Ppi)))))
      as (s1 & gam & s3 & M1 & Gl & M2 & M3).
    unfold cmix in M. rewrite M in M1. injection M1 as <-.
    unfold prove_round, cmix, cglue. rewrite M2. cbn [bind]. destruct bit.
    - eexists. split; [reflexivity|]. cbn [fst snd]. exact (verify_accepts s s2 n cyclic true pi s3 Vp Ls Hn M2).
    - rewrite Gl. cbn [bind]. eexists. split; [reflexivity|]. cbn [fst snd].
      exact (verify_accepts s s2 n cyclic false gam s3 (glue_valid n cyclic sigma pi gam Hn Vs Vp Gl) Ls Hn M3).
  Qed.

  (* what TMCG_CreateStackSecret returns is an honest secret *)
  Lemma created_valid cyclic n coins o ss coins' : create_stack_secret cyclic n q coins = Ret ((o, ss), coins') ->
    valid_secret q n cyclic (secN ss) /\ (n <= max_cards)%nat.
  Proof.
    intros C. apply create_stack_secret_spec in C. destruct C as (Hn & L & P & R & Cy). split; [|assumption].
    unfold valid_secret, secN. rewrite map_length, map_map. cbn [fst]. split; [assumption|]. split; [assumption|]. split.
    - rewrite Forall_map. eapply Forall_impl; [|exact R]. intros [a z] H. cbn in *. rewrite Z2N.id; lia.
    - intros ->. destruct Cy as (_ & r & Hr & E & _). exists r. split; assumption.
  Qed.

  (* an iteration is accepted whenever its fresh secret can be drawn; so a run is decided by TMCG_CreateStackSecret alone *)
  Lemma rounds_unfold s s2 n sigma cyclic k coins bit bits : length s = n -> (n <= max_cards)%nat ->
    valid_secret q n cyclic sigma -> cmix G h s sigma = Ret s2 ->
    honest_rounds Hc G h (S k) cyclic s s2 sigma coins (bit :: bits) =
    bind (create_stack_secret cyclic n q coins) (fun x => honest_rounds Hc G h k cyclic s s2 sigma (snd x) bits).
  Proof.
    intros Ls Hn Vs M. cbn [honest_rounds]. fold q. rewrite Ls.
    destruct (create_stack_secret cyclic n q coins) as [[[o ss] coins']| | | | |] eqn:C; try reflexivity. cbn [bind fst snd].
    destruct (created_valid _ _ _ _ _ _ C) as (Vp & _).
    destruct (round_complete s s2 n cyclic sigma (secN ss) bit Ls Hn Vs Vp M) as (cr & -> & V). cbn [bind]. now rewrite V.
  Qed.

  Theorem rounds_complete s s2 n sigma cyclic : length s = n -> (n <= max_cards)%nat ->
    valid_secret q n cyclic sigma -> cmix G h s sigma = Ret s2 ->
    forall k coins bits b, honest_rounds Hc G h k cyclic s s2 sigma coins bits = Ret b -> b = true.
  Proof.
    intros Ls Hn Vs M. induction k as [|k IH]; intros coins bits b; [now intros [= <-]|].
    destruct bits as [|bit bits]; [discriminate|]. rewrite (rounds_unfold s s2 n) by assumption.
    destruct (create_stack_secret cyclic n q coins) as [[[o ss] coins']| | | | |]; cbn [bind snd]; [apply IH|discriminate..].
  Qed.

  Lemma cmask_ok c r : card_ok G c = true -> card_ok G (cmask G h c r) = true.
  Proof.
    unfold card_ok, cmask, vmask. fold p g. cbn [fst snd]. rewrite !andb_true_iff, !check_element_spec. intros [H1 H2].
    split; apply in_group_mul; try assumption; apply in_group_pow; try assumption; lia.
  Qed.

  Lemma mix_cards_ok s ss s2 : (length s <= max_cards)%nat -> cmix G h s ss = Ret s2 ->
    forallb (card_ok G) s = true -> forallb (card_ok G) s2 = true.
  Proof.
    intros Hn M F. rewrite forallb_forall in *. intros c2 I. apply In_nth_error in I. destruct I as [i Ei].
    pose proof (mix_length _ _ _ _ _ _ M Hn) as L2.
    pose proof (nth_error_lt _ _ _ Ei) as Hi. rewrite L2 in Hi.
    destruct (mix_nth _ _ _ _ _ _ i M Hi ltac:(lia)) as (j & r0 & c & j' & r & _ & Ec & _ & E2).
    rewrite Ei in E2. injection E2 as ->. apply cmask_ok. apply F.
    apply nthN_spec in Ec. destruct Ec as (_ & Ec). eapply nth_error_In; eassumption.
  Qed.

  Lemma verify_pre_ok s ss s2 : (length s <= max_cards)%nat -> cmix G h s ss = Ret s2 ->
    forallb (card_ok G) s = true -> verify_pre G s s2 = true.
  Proof.
    intros Hn M F. unfold verify_pre. rewrite (mix_length _ _ _ _ _ _ M Hn), Nat.eqb_refl. cbn [andb].
    pose proof (mix_cards_ok s ss s2 Hn M F) as F2. rewrite forallb_forall in *. intros [c2 c] I. cbn [fst snd].
    rewrite (F2 c2 (in_combine_l _ _ _ _ I)), (F c (in_combine_r _ _ _ _ I)). reflexivity.
  Qed.

  (* stated as "if the run returns b then b = true": a run may also end without a verdict (coins or challenge bits run out,
     kappa above TMCG_MAX_ZNP_ITERATIONS); rounds_outcome says when *)
  Section Whole.
  Notation cmix := (cmix G h).
  Theorem cutchoose_complete kappa cyclic s s2 sigma coins bits b :
    (length s <= max_cards)%nat -> forallb (card_ok G) s = true ->
    valid_secret q (length s) cyclic sigma -> cmix s sigma = Ret s2 ->
    honest_run Hc G h kappa cyclic s s2 sigma coins bits = Ret b -> b = true.
  Proof.
    intros Hn F Vs M. unfold honest_run. rewrite (verify_pre_ok s sigma s2 Hn M F). cbn [negb].
    destruct (TMCG_MAX_ZNP_ITERATIONS <? kappa); [discriminate|].
    eapply rounds_complete; try eassumption. reflexivity.
  Qed.
  End Whole.

  (* coin strings reached from `coins` by successful calls of TMCG_CreateStackSecret *)
  Inductive coins_left (cyclic : bool) (n : nat) : list N -> list N -> Prop :=
  | left_all coins : coins_left cyclic n coins coins
  | left_draw coins o ss coins' rest : create_stack_secret cyclic n q coins = Ret ((o, ss), coins') ->
      coins_left cyclic n coins' rest -> coins_left cyclic n coins rest.

  (* the iterations never end in a rejection, an out-of-range access or a failed assertion of mix / glue: all k are accepted
     unless the challenge bits run out or TMCG_CreateStackSecret fails on what is left of the prover's coins *)
  Theorem rounds_outcome s s2 n sigma cyclic : length s = n -> (n <= max_cards)%nat ->
    valid_secret q n cyclic sigma -> cmix G h s sigma = Ret s2 ->
    forall k coins bits, honest_rounds Hc G h k cyclic s s2 sigma coins bits = Ret true \/
      (length bits < k)%nat \/
      exists rest, coins_left cyclic n coins rest /\ forall x, create_stack_secret cyclic n q rest <> Ret x.
  Proof.
    intros Ls Hn Vs M. induction k as [|k IH]; intros coins bits; [now left|].
    destruct bits as [|bit bits]; [right; left; cbn; lia|]. rewrite (rounds_unfold s s2 n) by assumption.
    destruct (create_stack_secret cyclic n q coins) as [[[o ss] coins']| | | | |] eqn:C;
      try (right; right; exists coins; split; [constructor|intros x; rewrite C; discriminate]).
    cbn [bind snd]. destruct (IH coins' bits) as [A|[A|(rest & L & A)]]; [now left|right; left; cbn [length]; lia|].
    right; right. exists rest. split; [exact (left_draw _ _ _ _ _ _ _ C L)|exact A].
  Qed.
End CC.
