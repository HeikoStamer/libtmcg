(* FsLemmas: the Fiat-Shamir serialisation is injective (parser round trip), vector variants included. *)
From Coq Require Import ZArith NArith List Bool Lia.
From LT Require Import CodecModel CodecLemmas FsModel.
Import ListNotations.
Local Open Scope N_scope.

Lemma hexchar_range d : d < 16 -> (48 <= hexchar d <= 57) \/ (97 <= hexchar d <= 102).
Proof.
  intros H. unfold hexchar. destruct (N.ltb_spec d 10); lia.
Qed.

Lemma unhex_hexchar d : d < 16 -> unhex (hexchar d) = d.
Proof.
  intros H. unfold hexchar, unhex. destruct (N.ltb_spec d 10).
  - rewrite (proj2 (N.leb_le 48 _)), (proj2 (N.leb_le _ 57)) by lia. cbn [andb]. lia.
  - rewrite (proj2 (N.leb_gt _ 57)), andb_false_r, (proj2 (N.leb_le 97 _)), (proj2 (N.leb_le _ 102)) by lia. cbn [andb]. lia.
Qed.

Lemma hexchar_not_bar d : d < 16 -> hexchar d <> bar.
Proof. intros H E. pose proof (hexchar_range d H). unfold bar in E. lia. Qed.

Lemma map_unhex ds : Forall (fun d => d < 16) ds -> map unhex (map hexchar ds) = ds.
Proof.
  induction 1 as [|d ds Hd _ IH]; [reflexivity|]. cbn [map]. now rewrite unhex_hexchar, IH.
Qed.

Lemma forallb_unhex ds : Forall (fun d => d < 16) ds -> forallb (fun x => unhex x <? 16) (map hexchar ds) = true.
Proof.
  induction 1 as [|d ds Hd _ IH]; [reflexivity|]. cbn [map forallb].
  rewrite unhex_hexchar by assumption. rewrite IH. apply andb_true_iff. split; [now apply N.ltb_lt|reflexivity].
Qed.

Lemma digits16 n : Forall (fun d => d < 16) (to_digits 16 n).
Proof. apply to_digits_lt. lia. Qed.

(* a non-empty string of hexadecimal digits, with or without sign, reads back as its value *)
Lemma hex_val_digits ds : ds <> [] -> Forall (fun d => d < 16) ds ->
  hex_val (map hexchar ds) = Some (Z.of_N (from_digits 16 ds)) /\
  hex_val (45 :: map hexchar ds) = Some (- Z.of_N (from_digits 16 ds))%Z.
Proof.
  intros NE F. pose proof (forallb_unhex ds F) as A. pose proof (map_unhex ds F) as B.
  destruct ds as [|d ds]; [contradiction|]. cbn [hex_val map] in *. rewrite N.eqb_refl, A, B.
  destruct (N.eqb_spec (hexchar d) 45) as [X|_]; [|now split].
  pose proof (hexchar_range d (Forall_inv F)). lia.
Qed.

Theorem hex_val_of_Z z : hex_val (hex_of_Z z) = Some z.
Proof.
  destruct z as [|p|p]; cbn [hex_of_Z]; [reflexivity|..]; unfold hex_mag;
    destruct (hex_val_digits _ (to_digits_nonempty 16 (Npos p)) (digits16 _)) as [A B];
    rewrite from_to_digits in A, B by lia; assumption.
Qed.

Lemma hex_of_Z_nobar z : Forall (fun c => c <> bar) (hex_of_Z z).
Proof.
  assert (M : forall n, Forall (fun c => c <> bar) (hex_mag n))
    by (intros n; apply Forall_map, (Forall_impl _ hexchar_not_bar), digits16).
  destruct z as [|p|p]; cbn [hex_of_Z]; repeat constructor; try apply M; discriminate.
Qed.

Lemma hex_mag_nonempty n : hex_mag n <> [].
Proof.
  unfold hex_mag. pose proof (to_digits_nonempty 16 n). destruct (to_digits 16 n); [contradiction|discriminate].
Qed.

Lemma hex_of_Z_nonempty z : hex_of_Z z <> [].
Proof.
  destruct z as [|p|p]; cbn [hex_of_Z]; try discriminate. apply hex_mag_nonempty.
Qed.

Lemma fs_ser_cons z l : fs_ser (z :: l) = hex_of_Z z ++ bar :: fs_ser l.
Proof. unfold fs_ser. cbn [flat_map]. unfold fs_ser1. now rewrite <- app_assoc. Qed.

Lemma fs_ser_app a b : fs_ser (a ++ b) = fs_ser a ++ fs_ser b.
Proof. unfold fs_ser. apply flat_map_app. Qed.

Theorem fs_parse_ser l k : fs_parse (length l + k) (fs_ser l) = Some l.
Proof.
  induction l as [|z l IH]; [now destruct k|].
  rewrite fs_ser_cons. cbn [length Nat.add fs_parse].
  destruct (hex_of_Z z ++ bar :: fs_ser l) as [|c r] eqn:E; [now destruct (hex_of_Z z)|].
  rewrite <- E, split_at_app, hex_val_of_Z, IH by apply hex_of_Z_nobar. reflexivity.
Qed.

(* the hash input determines the whole argument list: no two different lists of integers serialise alike *)
Theorem fs_ser_inj l1 l2 : fs_ser l1 = fs_ser l2 -> l1 = l2.
Proof.
  intros E. pose proof (fs_parse_ser l1 (length l2)) as A. pose proof (fs_parse_ser l2 (length l1)) as B.
  rewrite E, Nat.add_comm, B in A. now injection A.
Qed.

(* vector variants: vectors of the same length followed by the scalar arguments *)
Theorem fs_ser_vec_inj (v v' a a' : list Z) : length v = length v' ->
  fs_ser (v ++ a) = fs_ser (v' ++ a') -> v = v' /\ a = a'.
Proof.
  intros L E. apply fs_ser_inj in E. revert v' L E.
  induction v as [|x v IH]; intros [|y v'] L E; cbn in L; try discriminate.
  - now split.
  - cbn in E. inversion E; subst. destruct (IH v') as [A B]; [lia|assumption|]. subst. now split.
Qed.

Lemma flat_pairs_inj v v' : flat_pairs v = flat_pairs v' -> v = v'.
Proof.
  revert v'. induction v as [|[a b] v IH]; intros [|[a' b'] v'] E; try discriminate; [reflexivity|].
  cbn in E. inversion E; subst. f_equal. now apply IH.
Qed.

(* replacing one element by a different one changes the hash input *)
Corollary fs_ser_single_change (pre post : list Z) (x y : Z) : x <> y ->
  fs_ser (pre ++ x :: post) <> fs_ser (pre ++ y :: post).
Proof.
  intros N E. apply fs_ser_inj in E. apply app_inv_head in E. now inversion E.
Qed.
