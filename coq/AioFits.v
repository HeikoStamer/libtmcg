(* AioFits: proofs about AioModel -- every record an honest sender writes fits the receive buffer
   (Send refuses integers with 2*size >= buf_in_size), hence an honest stream never drives the receiver into the
   "read buffer exceeded" state, whatever the fragmentation. *)
From Coq Require Import ZArith NArith List Bool Lia.
From LT Require Import ListFacts gen_Consts CodecModel CodecLemmas AioModel AioLemmas AioRoundtrip AioProgress.
Import ListNotations.
Local Open Scope Z_scope.

Lemma sizeinbase62_upper x : sizeinbase62 x <= (Z.log2 (Z.abs x) + 1) / 5 + 1.
Proof.
  unfold sizeinbase62. destruct (Z.eqb_spec x 0) as [->|N].
  - cbn. lia.
  - set (b := Z.log2 (Z.abs x) + 1). assert (0 <= b) by (pose proof (Z.log2_nonneg (Z.abs x)); lia).
    apply Z.add_le_mono_r.
    transitivity (((logb2_62 + 1) * b) / ((logb2_62 + 1) * 5)).
    + apply Z.div_le_compat_l; [unfold logb2_62; lia|]. unfold logb2_62. split; [lia|]. vm_compute. discriminate.
    + rewrite Z.div_mul_cancel_l by (unfold logb2_62; lia). lia.
Qed.

Lemma sizeinbase62_lower x : x <> 0 -> Z.log2 (Z.abs x) + 1 <= 6 * sizeinbase62 x.
Proof.
  intros N. unfold sizeinbase62. destruct (Z.eqb_spec x 0); [contradiction|].
  set (b := Z.log2 (Z.abs x) + 1). assert (0 <= b) by (pose proof (Z.log2_nonneg (Z.abs x)); lia).
  assert (b / 6 <= ((logb2_62 + 1) * b) / 2 ^ 64).
  { rewrite <- (Z.div_mul_cancel_l b 6 (logb2_62 + 1)) by (unfold logb2_62; lia).
    apply Z.div_le_compat_l; [unfold logb2_62; lia|]. split; [lia|]. vm_compute. discriminate. }
  pose proof (Z.div_mod b 6 ltac:(lia)). pose proof (Z.mod_pos_bound b 6 ltac:(lia)). lia.
Qed.

Lemma zlog2_pos p : Z.log2 (Zpos p) = Z.of_N (N.log2 (Npos p)).
Proof. destruct p; reflexivity. Qed.

Lemma encode62_length z : blen (encode62 z) <= Z.log2 (Z.abs z) + 3.
Proof.
  assert (D : forall p, blen (map digit_char (to_digits 62 (Npos p))) <= Z.log2 (Zpos p) + 2).
  { intros p. unfold blen. rewrite map_length. unfold to_digits. cbn [N.eqb].
    destruct (to_digits_fuel_acc 62 (S (N.to_nat (N.size (Npos p)))) (Npos p) []) as (l & -> & L & _). rewrite app_nil_r.
    pose proof (N.size_log2 (N.pos p) ltac:(discriminate)) as SL. rewrite zlog2_pos. lia. }
  destruct z as [|p|p]; cbn [encode62 Z.abs].
  - cbn. lia.
  - specialize (D p). lia.
  - specialize (D p). unfold blen in *. cbn [length]. lia.
Qed.

Lemma import_bits c0 ct : (0 < c0 < 256)%N -> Forall (fun d => (d < 256)%N) ct ->
  Z.log2 (Z.of_N (import_be (c0 :: ct))) + 1 <= 8 * (blen ct + 1).
Proof.
  intros Hc F. unfold import_be. rewrite from_digits_unfold.
  pose proof (fold_dstep_range 256 (c0 :: ct) ltac:(lia) ltac:(constructor; [lia|assumption]) 0) as [_ U].
  pose proof (fold_dstep_range 256 ct ltac:(lia) F (dstep 256 0 c0)) as [G _]. cbn [fold_left] in *.
  set (v := fold_left (dstep 256) ct (dstep 256 0 c0)) in *.
  assert (P0 : (0 < 256 ^ N.of_nat (length ct))%N) by (apply N.neq_0_lt_0, N.pow_nonzero; lia).
  assert (V0 : (0 < v)%N) by (unfold dstep in G at 1; nia).
  rewrite N.add_0_l, N.mul_1_l in U.
  assert (Z.of_N v < 2 ^ (8 * (blen ct + 1))).
  { apply N2Z.inj_lt in U. rewrite N2Z.inj_pow in U. cbn [length] in U. rewrite Nnat.Nat2N.inj_succ, N2Z.inj_succ, nat_N_Z in U.
    change (Z.of_N 256) with (2 ^ 8) in U. rewrite <- Z.pow_mul_r in U by (unfold blen; lia). unfold blen.
    replace (8 * (Z.of_nat (length ct) + 1)) with (8 * Z.succ (Z.of_nat (length ct))) by lia. exact U. }
  apply Z.log2_lt_pow2 in H; [lia|lia].
Qed.

Lemma zeros_length n : length (zeros n) = n.
Proof. induction n; cbn; auto. Qed.

Lemma sizeinbase62_pos x : 1 <= sizeinbase62 x.
Proof.
  destruct (Z.eq_dec x 0) as [->|N]; [cbn; lia|].
  pose proof (sizeinbase62_lower x N). pose proof (Z.log2_nonneg (Z.abs x)). lia.
Qed.

(* the longest record: '+' and a ciphertext of at most buf_in_size/2 + 1 + blklen bytes (digits and padding of the plaintext) make a
   number of 8 bits a byte, and a base-62 digit carries more than 5 bits; on a CTR link '|' and the counter follow, at most
   6*blklen + 2 digits, after the blklen digits its size test leaves room for; the tag; 16 covers newline, '|' and the roundings *)
Definition rec_bound (P : prims) : Z :=
  8 * (buf_in_size / 2 + 2 + Z.of_nat (blklen P)) / 5 + 7 * Z.of_nat (blklen P) + Z.of_nat (maclen P) + 16.
(* side condition on the parameters of the link (maclen 32, blklen 16, buffer 4096: 3465 <= 4096) *)
Definition link_fits (P : prims) : Prop := rec_bound P <= buf_in_size /\ Z.of_nat (blklen P) < buf_in_size.

Section Fits.
Variable P : prims.
Variable c : cfg.
Variable iv : bytes.
Hypothesis mac_len : forall x, length (mac P x) = maclen P.
Hypothesis enc_len : forall h p, length (c_enc P h p) = length p.
Hypothesis enc_byte : forall h p, isbytes p -> isbytes (c_enc P h p).

(* kept folded so that cbn and lia treat 2^256, the buffer size and the GMP size formula as atoms *)
Local Opaque hide_length buf_in_size sizeinbase62 ctr_block.

Lemma plain_bufsize_le size : 0 <= size -> plain_bufsize P c size <= size + 2 + Z.of_nat (eff_blklen P c).
Proof.
  intros H. unfold plain_bufsize. destruct (nonblock c); [lia|].
  destruct (Z.ltb_spec 0 (Z.of_nat (eff_blklen P c))); [|lia].
  pose proof (Z.mod_pos_bound (size + 2 - 1) (Z.of_nat (eff_blklen P c)) ltac:(lia)).
  destruct (Z.ltb_spec 0 ((size + 2 - 1) mod Z.of_nat (eff_blklen P c))); lia.
Qed.

(* bytes written by one accepted Send: the IV (first time, encrypted link) and a record of at most rec_bound bytes *)
Lemma send_len st m w st' : 0 <= s_chunk st -> send P c iv st m = Some (w, st') ->
  blen w <= (if encr c && negb (s_iv_sent st) then blen iv else 0) + rec_bound P.
Proof.
  intros Hch H. destruct (send_shape P c iv st m w st' H) as (n & line & -> & _ & _ & SZ & _ & SB & X).
  set (tag := if auth c then _ else _).
  assert (TL : blen tag <= Z.of_nat (maclen P)) by (unfold tag, blen; destruct (auth c); [rewrite mac_len|cbn]; lia).
  clearbody tag.
  set (size := sizeinbase62 (if encr c then m + hide_length else m)) in *.
  pose proof (sizeinbase62_pos (if encr c then m + hide_length else m)) as SP. fold size in SP.
  pose proof (plain_bufsize_le size ltac:(lia)) as PB. unfold eff_blklen in PB.
  assert (HS : size <= buf_in_size / 2) by (apply Z.div_le_lower_bound; lia).
  set (X8 := 8 * (buf_in_size / 2 + 2 + Z.of_nat (blklen P)) / 5).
  assert (G8 : buf_in_size / 2 + 2 + Z.of_nat (blklen P) <= X8) by (apply Z.div_le_lower_bound; lia).
  assert (LL : blen line <= X8 + 7 * Z.of_nat (blklen P) + 14).
  { destruct (encr c) eqn:E.
    - (* the ciphertext is as long as the padded plaintext, its value has 8 bits per byte, 5 of which make a digit *)
      destruct X as (_ & C2 & C3 & -> & _).
      set (ct := c_enc P _ _) in *. set (encval := Z.of_N (import_be (c_plus :: ct))) in *.
      assert (Lct : blen ct <= size + 1 + Z.of_nat (blklen P)).
      { unfold ct, blen in *. rewrite enc_len, app_length, zeros_length. lia. }
      assert (IBits : Z.log2 encval + 1 <= 8 * (blen ct + 1)).
      { apply import_bits; [unfold c_plus; lia|]. apply enc_byte, Forall_app. split; [apply encode62_isbytes|apply zeros_isbytes]. }
      pose proof (sizeinbase62_upper encval) as SU. rewrite Z.abs_eq in SU by (unfold encval; lia).
      assert (SE : sizeinbase62 encval <= X8 + 1).
      { etransitivity; [exact SU|]. apply Z.add_le_mono_r, Z.div_le_mono; lia. }
      destruct (ctr_mode c); [|lia]. specialize (C2 eq_refl).
      pose proof (sizeinbase62_lower (s_chunk st + 1) ltac:(lia)) as SL. pose proof (encode62_length (s_chunk st + 1)) as EL.
      unfold blen in *. rewrite app_length. cbn [length]. lia.
    - destruct X as (-> & _). cbn [Z.of_nat] in PB. lia. }
  unfold rec_bound. fold X8. unfold blen in *. rewrite !app_length. cbn [length].
  destruct (encr c && negb (s_iv_sent st)); cbn [length]; lia.
Qed.

End Fits.

Lemma app_prefix {A} (cc : list A) : forall a b d, a ++ b = cc ++ d -> (length cc <= length a)%nat -> exists x, a = cc ++ x.
Proof.
  induction cc as [|y cc IH]; intros a b d H L; [exists a; reflexivity|].
  destruct a as [|x a]; [cbn in L; lia|]. cbn in H. injection H as -> H.
  destruct (IH a b d H ltac:(cbn in L; lia)) as [z ->]. exists z. reflexivity.
Qed.

Section NoStuck.
Variable P : prims.
Variable c : cfg.
Variable nonce : bytes.
Hypothesis blk_pos : (0 < blklen P)%nat.

Notation wf := (recv_wf P c).

Definition rbytes (r : bytes * bytes) : bytes := fst r ++ c_nl :: snd r.
Definition flat (recs : list (bytes * bytes)) : bytes := concat (map rbytes recs).
Definition good_recs (recs : list (bytes * bytes)) : Prop :=
  Forall (fun r => Forall (fun x => x <> c_nl) (fst r) /\ length (snd r) = eff_maclen P c /\
                   blen (rbytes r) <= buf_in_size) recs.

(* before the IV is taken the whole wire is still ahead; afterwards a whole number of records *)
Definition inv (recs : list (bytes * bytes)) (st : rstate) (R : bytes) : Prop :=
  if encr c && negb (r_iv st)
  then R = [] \/ exists ivx, length ivx = blklen P /\ R = ivx ++ flat recs
  else exists j, R = flat (skipn j recs).

Lemma first_record_flat r rr : good_recs (r :: rr) -> first_record (eff_maclen P c) (flat (r :: rr)) = Some (fst r, snd r, flat rr).
Proof.
  intros G. inversion G as [|? ? (N & L & _) _]; subst. unfold flat. cbn [map concat]. unfold rbytes at 1.
  rewrite <- app_assoc. cbn [app]. now apply first_record_build.
Qed.

Lemma inv_clear recs st R : inv recs (clear_flag st) R <-> inv recs st R.
Proof. reflexivity. Qed.

(* taking the IV leaves all records ahead; parsing a record leaves the records after it *)
Lemma inv_consumes recs st k R o st' k' R' : good_recs recs ->
  consumes P c nonce (r_iv st) k R o (r_iv st') k' R' -> inv recs st R -> inv recs st' R'.
Proof.
  intros G C. unfold inv. destruct C as [R0 | x R0 E -> L | l t R0 o1 k1 D F L PR]; [exact (fun H => H)| |].
  - rewrite E. cbn [negb andb]. intros [Z|(ivx & Li & H)].
    + apply (f_equal (@length _)) in Z. rewrite app_length in Z. cbn [length] in Z. lia.
    + exists O. apply (f_equal (skipn (length x))) in H. rewrite skipn_app_exact in H by reflexivity.
      rewrite L, <- Li, skipn_app_exact in H by reflexivity. exact H.
  - rewrite D. intros [j Hj]. destruct (skipn j recs) as [|r0 rr] eqn:SK; [destruct l; discriminate|].
    assert (G0 : good_recs (r0 :: rr)) by (rewrite <- SK; apply Forall_skipn; exact G).
    pose proof (first_record_build _ _ _ R0 F L) as FR. rewrite Hj, (first_record_flat _ _ G0) in FR.
    destruct o1; [exists (S j)|exists (S j)|exists j; congruence]; rewrite <- (skipn_skipn 1 j), SK; cbn [skipn]; congruence.
Qed.

Lemma inv_run recs evs : good_recs recs -> forall st pipe os st' pipe', wf st ->
  run P c nonce st pipe evs = (os, st', pipe') ->
  inv recs st (r_buf st ++ pipe ++ fed evs) -> inv recs st' (r_buf st' ++ pipe' ++ []).
Proof.
  intros G. induction evs as [|e r IH]; intros st pipe os st' pipe' W H I.
  - cbn in H. injection H as _ <- <-. exact I.
  - destruct e as [ch|]; cbn [run fed] in *.
    + apply (IH st (pipe ++ ch) os st' pipe' W H). now rewrite <- app_assoc.
    + destruct (recv_call P c nonce st pipe) as [[o st1] p1] eqn:CS.
      destruct (run P c nonce st1 p1 r) as [[os2 st2] p2] eqn:RN. injection H as _ <- <-.
      destruct (call_consumes P c nonce _ _ _ _ _ (fed r) W CS) as [C W1].
      exact (IH st1 p1 os2 st2 p2 W1 RN (inv_consumes _ _ _ _ _ _ _ _ G C I)).
Qed.

Lemma never_stuck recs st pipe : good_recs recs -> Z.of_nat (blklen P) < buf_in_size -> wf st ->
  inv recs st (r_buf st ++ pipe ++ []) -> ~ stuck P c st pipe.
Proof.
  intros G BL W I (NE & RM & F & FO).
  assert (Full : buf_in_size <= blen (r_buf st)) by lia.
  unfold inv in I. destruct (encr c && negb (r_iv st)) eqn:IV.
  - apply andb_prop in IV. destruct IV as [E Iv]. apply negb_true_iff in Iv.
    destruct (W E Iv) as [L _]. unfold blen in Full. lia.
  - destruct (FO F) as [FN|[E Iv]]; [|rewrite E, Iv in IV; discriminate].
    destruct I as [j Hj]. rewrite app_nil_r in Hj.
    destruct (skipn j recs) as [|r0 rr] eqn:SK.
    + cbn in Hj. apply app_eq_nil in Hj. destruct Hj as [_ Hp]. contradiction.
    + assert (G0 : good_recs (r0 :: rr)) by (rewrite <- SK; apply Forall_skipn; exact G).
      inversion G0 as [|? ? (N0 & L0 & B0) _]; subst.
      unfold flat in Hj. cbn [map concat] in Hj.
      destruct (app_prefix (rbytes r0) (r_buf st) pipe (concat (map rbytes rr)) Hj) as [x Hx].
      { unfold blen in *. lia. }
      rewrite Hx in FN. unfold rbytes in FN. rewrite <- app_assoc in FN. cbn [app] in FN.
      rewrite first_record_build in FN by assumption. discriminate.
Qed.

End NoStuck.
