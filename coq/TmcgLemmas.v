(* TmcgLemmas -- proofs about TmcgModel (C01): opening a card of the quadratic-residue encoding.
   The residuosity oracle of every player is abstract (Section variables); its algebraic laws are exactly what
   a valid key (m Blum integer, y a non-residue with Jacobi symbol +1) provides -- they appear as premises. *)
From Coq Require Import ZArith Lia List Bool ZifyBool.
From LT Require Import TmcgModel.
Import ListNotations.
Local Open Scope Z_scope.

Lemma xor_upto_ext (n : nat) (f g : nat -> bool) : (forall i, (i < n)%nat -> f i = g i) -> xor_upto n f = xor_upto n g.
Proof. induction n as [|n IH]; intros H; cbn [xor_upto]; [reflexivity|]. rewrite IH, H by auto. reflexivity. Qed.

Lemma xor_upto_xorb (n : nat) (f g : nat -> bool) :
  xor_upto n (fun i => xorb (f i) (g i)) = xorb (xor_upto n f) (xor_upto n g).
Proof.
  induction n as [|n IH]; cbn [xor_upto]; [reflexivity|]. rewrite IH.
  destruct (xor_upto n f), (xor_upto n g), (f n), (g n); reflexivity.
Qed.

Lemma xor_upto_false (n : nat) : xor_upto n (fun _ => false) = false.
Proof. induction n as [|n IH]; cbn [xor_upto]; [reflexivity|]. now rewrite IH. Qed.

Lemma xor_upto_single (n idx : nat) (v : bool) (f : nat -> bool) : (idx < n)%nat ->
  xor_upto n (fun i => if Nat.eqb i idx then v else f i)
  = xorb v (xor_upto n (fun i => if Nat.eqb i idx then false else f i)).
Proof.
  induction n as [|n IH]; intros H; [lia|]. cbn [xor_upto].
  destruct (Nat.eqb_spec n idx) as [->|Ne].
  - rewrite (xor_upto_ext idx _ (fun i => if Nat.eqb i idx then false else f i)).
    + set (x := xor_upto idx _). destruct v, x; reflexivity.
    + intros i Hi. destruct (Nat.eqb_spec i idx); [lia|reflexivity].
  - rewrite IH by lia. set (x := xor_upto n _). destruct v, x, (f n); reflexivity.
Qed.

Lemma complete_secret_column (k index : nat) (b : matrix) (j : nat) : (index < k)%nat ->
  xor_upto k (fun i => Z.odd (complete_secret k index b i j)) = false.
Proof.
  intros H. unfold complete_secret.
  set (X := xor_upto k (fun i' => if Nat.eqb i' index then false else Z.odd (b i' j))).
  rewrite (xor_upto_ext k _ (fun i => if Nat.eqb i index then X else Z.odd (b i j))).
  - rewrite xor_upto_single by assumption. fold X. destruct X; reflexivity.
  - intros i _. destruct (Nat.eqb i index); [destruct X; reflexivity|reflexivity].
Qed.

Lemma type_sum_ext (w : nat) (f g : nat -> bool) : (forall j, (j < w)%nat -> f j = g j) -> type_sum w f = type_sum w g.
Proof. induction w as [|w IH]; intros H; cbn [type_sum]; [reflexivity|]. rewrite IH, H by auto. reflexivity. Qed.

Lemma type_sum_bits (T : Z) (w : nat) : 0 <= T -> type_sum w (fun j => Z.testbit T (Z.of_nat j)) = T mod 2 ^ Z.of_nat w.
Proof.
  intros HT. induction w as [|w IH]; cbn [type_sum].
  - cbn. now rewrite Z.mod_1_r.
  - rewrite IH. rewrite Nat2Z.inj_succ, Z.pow_succ_r by lia.
    rewrite (Z.mul_comm 2). rewrite Z.rem_mul_r by lia.
    destruct (Z.testbit T (Z.of_nat w)) eqn:B.
    + apply Z.testbit_true in B; [|lia]. rewrite B. lia.
    + apply Z.testbit_false in B; [|lia]. rewrite B. lia.
Qed.

(* the announced bits are arbitrary integers: only their parity enters TMCG_TypeOfCard *)
Lemma type_of_card_parity (k w : nat) (B B' : matrix) :
  (forall i j, (i < k)%nat -> (j < w)%nat -> Z.odd (B i j) = Z.odd (B' i j)) -> type_of_card k w B = type_of_card k w B'.
Proof.
  intros H. unfold type_of_card. apply type_sum_ext. intros j Hj. apply xor_upto_ext. intros i Hi. now apply H.
Qed.

Section Players.
  Variable k w : nat.
  Variables km ky : nat -> Z.                (* public keys (m_i, y_i) *)
  Variable nqr : nat -> Z -> bool.           (* residuosity oracle of player i (tmcg_mpz_qrmn_p with the secret factors) *)
  Variable J : nat -> Z -> Prop.             (* "z has Jacobi symbol +1 and is a unit modulo m_i" *)
  Variable U : nat -> Z -> Prop.             (* "r is a unit modulo m_i" *)
  Hypothesis J_one : forall i, J i 1.
  Hypothesis J_y : forall i, J i (ky i).
  Hypothesis J_sq : forall i z r, J i z -> U i r -> J i ((((r * r) mod km i) * z) mod km i).
  Hypothesis J_mul : forall i z, J i z -> J i ((z * ky i) mod km i).
  Hypothesis N_one : forall i, nqr i 1 = false.
  Hypothesis N_y : forall i, nqr i (ky i) = true.
  Hypothesis N_sq : forall i z r, J i z -> U i r -> nqr i ((((r * r) mod km i) * z) mod km i) = nqr i z.
  Hypothesis N_mul : forall i z, J i z -> nqr i ((z * ky i) mod km i) = negb (nqr i z).
  Hypothesis k_pos : (0 < k)%nat.

  Lemma mask_value_J (i : nat) (z r b : Z) : J i z -> U i r -> J i (mask_value (km i) (ky i) z r b).
  Proof. intros Hz Hr. unfold mask_value. destruct (Z.odd b); auto. Qed.

  Lemma mask_value_nqr (i : nat) (z r b : Z) : J i z -> U i r ->
    nqr i (mask_value (km i) (ky i) z r b) = xorb (nqr i z) (Z.odd b).
  Proof.
    intros Hz Hr. unfold mask_value. destruct (Z.odd b).
    - rewrite N_mul by (apply J_sq; assumption). rewrite N_sq by assumption. destruct (nqr i z); reflexivity.
    - rewrite N_sq by assumption. destruct (nqr i z); reflexivity.
  Qed.

  (* a card that encodes T: all entries admissible, column XOR of the residuosity bits = bit of T *)
  Definition encodes (T : Z) (c : matrix) : Prop :=
    forall j, (j < w)%nat ->
      (forall i, (i < k)%nat -> J i (c i j)) /\
      xor_upto k (fun i => nqr i (c i j)) = Z.testbit T (Z.of_nat j).

  (* an admissible card secret: unit masks, bits XOR to zero in every column (TMCG_CreateCardSecret) *)
  Definition good_secret (rb : matrix * matrix) : Prop :=
    forall j, (j < w)%nat ->
      (forall i, (i < k)%nat -> U i (fst rb i j)) /\
      xor_upto k (fun i => Z.odd (snd rb i j)) = false.

  Lemma open_card_encodes (T : Z) : encodes T (open_card_qr ky T).
  Proof.
    intros j Hj. split.
    - intros i Hi. unfold open_card_qr. destruct (Nat.eqb_spec i 0) as [->|]; [destruct (Z.testbit T _)|]; auto.
    - rewrite (xor_upto_ext k _ (fun i => if Nat.eqb i 0 then Z.testbit T (Z.of_nat j) else false)).
      + rewrite xor_upto_single by assumption.
        rewrite (xor_upto_ext k _ (fun _ => false)); [rewrite xor_upto_false; apply xorb_false_r|].
        intros i _. destruct (Nat.eqb i 0); reflexivity.
      + intros i _. unfold open_card_qr. destruct (Nat.eqb_spec i 0) as [->|]; [|apply N_one].
        destruct (Z.testbit T (Z.of_nat j)); [apply N_y|apply N_one].
  Qed.

  Lemma mask_card_encodes (T : Z) (c r b : matrix) : encodes T c -> good_secret (r, b) ->
    encodes T (mask_card km ky c r b).
  Proof.
    intros Hc Hs j Hj. destruct (Hc j Hj) as [HJ HX]. destruct (Hs j Hj) as [HU HB]. cbn [fst snd] in *. split.
    - intros i Hi. unfold mask_card. apply mask_value_J; auto.
    - rewrite (xor_upto_ext k _ (fun i => xorb (nqr i (c i j)) (Z.odd (b i j)))).
      + rewrite xor_upto_xorb, HX, HB. apply xorb_false_r.
      + intros i Hi. unfold mask_card. apply mask_value_nqr; auto.
  Qed.

  Lemma mask_chain_encodes (T : Z) (chain : list (matrix * matrix)) : Forall good_secret chain ->
    forall c, encodes T c -> encodes T (mask_chain km ky c chain).
  Proof.
    induction 1 as [|[r b] chain Hs _ IH]; intros c Hc; cbn [mask_chain]; [assumption|].
    apply IH. now apply mask_card_encodes.
  Qed.

  Lemma encodes_type (T : Z) (c : matrix) : 0 <= T < 2 ^ Z.of_nat w -> encodes T c ->
    type_of_card k w (self_bits nqr c) = T.
  Proof.
    intros HT Hc. unfold type_of_card.
    rewrite (type_sum_ext w _ (fun j => Z.testbit T (Z.of_nat j))).
    - rewrite type_sum_bits by lia. apply Z.mod_small. assumption.
    - intros j Hj. destruct (Hc j Hj) as [_ HX]. rewrite <- HX. apply xor_upto_ext.
      intros i _. unfold self_bits. destruct (nqr i (c i j)); reflexivity.
  Qed.

  (* create with type T, mask any number of times with admissible secrets, every player contributes the
     residuosity bits of its row: the card opens to T *)
  Theorem tmcg_open_ok (T : Z) (chain : list (matrix * matrix)) : 0 <= T < 2 ^ Z.of_nat w ->
    Forall good_secret chain ->
    type_of_card k w (self_bits nqr (mask_chain km ky (open_card_qr ky T) chain)) = T.
  Proof.
    intros HT Hs. apply encodes_type; [assumption|]. apply mask_chain_encodes; [assumption|apply open_card_encodes].
  Qed.

  (* whatever integers the players announce (0/1, 2, -3, 2^64 ...): as long as every announced value has the parity of the
     residuosity it was verified for -- which is what TMCG_VerifyCardSecret establishes, selecting the proof by parity --
     the card opens to T *)
  Theorem tmcg_open_any_bits (T : Z) (chain : list (matrix * matrix)) (B : matrix) : 0 <= T < 2 ^ Z.of_nat w ->
    Forall good_secret chain ->
    (forall i j, (i < k)%nat -> (j < w)%nat ->
       Z.odd (B i j) = nqr i (mask_chain km ky (open_card_qr ky T) chain i j)) ->
    type_of_card k w B = T.
  Proof.
    intros HT Hs HB.
    rewrite (type_of_card_parity k w B (self_bits nqr (mask_chain km ky (open_card_qr ky T) chain))).
    - apply tmcg_open_ok; assumption.
    - intros i j Hi Hj. rewrite HB by assumption. unfold self_bits.
      destruct (nqr i (mask_chain km ky (open_card_qr ky T) chain i j)); reflexivity.
  Qed.

  (* the secrets produced by TMCG_CreateCardSecret are admissible as soon as their masks are units *)
  Lemma completed_secret_good (index : nat) (r b : matrix) : (index < k)%nat ->
    (forall i j, (i < k)%nat -> (j < w)%nat -> U i (r i j)) -> good_secret (r, complete_secret k index b).
  Proof.
    intros Hi HU j Hj. cbn [fst snd]. split; [intros i Hik; now apply HU|]. now apply complete_secret_column.
  Qed.
End Players.

