(* CoinFlipArith: arithmetic shared by the secret-sharing (C15), threshold-signature (C16) and coin-flip (C17) lemmas:
   sums and products accumulated with a reduction after every step, and the exponent laws for elements of
   order dividing q in Z_p^* with exponents taken modulo q. *)
From Coq Require Import ZArith Znumtheory Lia List Bool.
From LT Require Import Zbase.
Local Open Scope Z_scope.

(* acc = (acc + f x) mod q over a list is the sum modulo q; likewise for products *)
Lemma fold_addm {A} (f : A -> Z) q l : forall acc,
  fold_left (fun a x => (a + f x) mod q) l (acc mod q) = (acc + fold_right (fun x s => f x + s) 0 l) mod q.
Proof.
  induction l as [|x l IH]; intros acc; cbn [fold_left fold_right]; [now rewrite Z.add_0_r|].
  now rewrite Zplus_mod_idemp_l, IH, Z.add_assoc.
Qed.

Lemma fold_mulm {A} (f : A -> Z) p l : forall acc,
  fold_left (fun a x => (a * f x) mod p) l (acc mod p) = (acc * fold_right (fun x s => f x * s) 1 l) mod p.
Proof.
  induction l as [|x l IH]; intros acc; cbn [fold_left fold_right]; [now rewrite Z.mul_1_r|].
  now rewrite Zmult_mod_idemp_l, IH, Z.mul_assoc.
Qed.

Section Sub.
  Variables p q : Z.
  Hypothesis Hp : 1 < p.
  Hypothesis Hq : 1 < q.

  Definition in_sub (x : Z) : Prop := powm x q p = 1.

  Lemma sub_pow_mod x e : in_sub x -> 0 <= e -> powm x (e mod q) p = powm x e p.
  Proof. intros Hx. apply powm_mod_order; assumption || lia. Qed.

  Lemma in_sub_mul x y : in_sub x -> in_sub y -> in_sub (x * y mod p).
  Proof.
    unfold in_sub. intros Hx Hy. rewrite powm_base_mod by lia. rewrite powm_mul_base by lia.
    rewrite Hx, Hy. apply Z.mod_1_l. lia.
  Qed.

  Lemma in_sub_pow x e : in_sub x -> 0 <= e -> in_sub (powm x e p).
  Proof.
    unfold in_sub. intros Hx He. rewrite <- powm_mul by lia. apply powm_order_mult; assumption || lia.
  Qed.

  Lemma in_sub_1 : in_sub (1 mod p).
  Proof. unfold in_sub. rewrite powm_base_mod, powm_1_l by lia. apply Z.mod_1_l, Hp. Qed.

  Lemma in_sub_nonzero x : in_sub x -> x mod p <> 0.
  Proof.
    intros Hx E. pose proof (powm_nonzero p q x Hp ltac:(lia) Hx 1 ltac:(lia)) as N. rewrite powm_1_r in N. lia.
  Qed.

  (* x^e in the subgroup for an arbitrary integer e: the exponent is reduced modulo q first *)
  Definition subexp (x e : Z) : Z := powm x (e mod q) p.

  Lemma subexp_range x e : 0 <= subexp x e < p.
  Proof. apply powm_range; [lia|]. apply Z.mod_pos_bound. lia. Qed.

  Lemma subexp_congr x e1 e2 : e1 mod q = e2 mod q -> subexp x e1 = subexp x e2.
  Proof. unfold subexp. now intros ->. Qed.

  Lemma subexp_pow x e : subexp x e = x ^ (e mod q) mod p.
  Proof. apply powm_spec; [lia|]. apply Z.mod_pos_bound. lia. Qed.

  Lemma powm_subexp x e : in_sub x -> 0 <= e -> powm x e p = subexp x e.
  Proof. intros Hx He. symmetry. now apply sub_pow_mod. Qed.

  Lemma subexp_in_sub x e : in_sub x -> in_sub (subexp x e).
  Proof. intros Hx. apply in_sub_pow; [assumption|]. apply Z.mod_pos_bound. lia. Qed.

  Lemma subexp_0 x : subexp x 0 = 1.
  Proof. apply Z.mod_1_l, Hp. Qed.

  Lemma subexp_add x e1 e2 : in_sub x -> subexp x (e1 + e2) = (subexp x e1 * subexp x e2) mod p.
  Proof.
    intros Hx. pose proof (Z.mod_pos_bound e1 q ltac:(lia)). pose proof (Z.mod_pos_bound e2 q ltac:(lia)).
    unfold subexp. rewrite <- powm_add, Zplus_mod by lia. apply sub_pow_mod; assumption || lia.
  Qed.

  Lemma subexp_powm x e k : in_sub x -> 0 <= k -> powm (subexp x e) k p = subexp x (e * k).
  Proof.
    intros Hx Hk. pose proof (Z.mod_pos_bound e q ltac:(lia)). unfold subexp.
    rewrite <- powm_mul, <- (Zmult_mod_idemp_l e) by lia. symmetry. apply sub_pow_mod; assumption || nia.
  Qed.

  Lemma subexp_mul x e k : in_sub x -> subexp (subexp x e) k = subexp x (e * k).
  Proof.
    intros Hx. unfold subexp at 1. rewrite subexp_powm by (assumption || apply Z.mod_pos_bound; lia).
    apply subexp_congr, Zmult_mod_idemp_r.
  Qed.

  Lemma subexp_mul_base x y e : subexp ((x * y) mod p) e = (subexp x e * subexp y e) mod p.
  Proof. pose proof (Z.mod_pos_bound e q ltac:(lia)). unfold subexp. rewrite powm_base_mod by lia. apply powm_mul_base; lia. Qed.

  Lemma sub_invm_mod x e : in_sub x -> 0 <= e -> invm (powm x e p) p = Some (subexp x (- e)).
  Proof.
    intros Hx He. rewrite (powm_inverse p q x) by (assumption || lia). f_equal.
    rewrite powm_subexp by (assumption || nia). apply subexp_congr.
    replace ((q - 1) * e) with (- e + e * q) by ring. now rewrite Z.mod_add by lia.
  Qed.

  Lemma subexp_inv x e : in_sub x -> invm (subexp x e) p = Some (subexp x (- e)).
  Proof.
    intros Hx. unfold subexp at 1. rewrite sub_invm_mod by (assumption || apply Z.mod_pos_bound; lia).
    f_equal. apply subexp_congr. now rewrite <- Z.sub_0_l, Zminus_mod_idemp_r.
  Qed.

  (* x^a y^b = x^c y^d  ==>  x^(a-c) = y^(d-b): multiply by x^-c y^-b *)
  Lemma subexp_quot x y a c b : in_sub x -> in_sub y ->
    subexp x (a - c) = ((subexp x a * subexp y b) * (subexp x (- c) * subexp y (- b))) mod p.
  Proof.
    intros Hx Hy. replace (subexp x a * subexp y b * (subexp x (- c) * subexp y (- b)))
      with (subexp x a * subexp x (- c) * (subexp y b * subexp y (- b))) by ring.
    rewrite Zmult_mod, <- !subexp_add, Z.add_opp_diag_r, Z.add_opp_r, subexp_0, Z.mul_1_r by assumption.
    symmetry. apply Z.mod_small, subexp_range.
  Qed.

  Lemma subexp_cancel x y a1 b1 a2 b2 : in_sub x -> in_sub y ->
    (subexp x a1 * subexp y b1) mod p = (subexp x a2 * subexp y b2) mod p -> subexp x (a1 - a2) = subexp y (b2 - b1).
  Proof.
    intros Hx Hy E. rewrite (subexp_quot x y a1 a2 b1), (subexp_quot y x b2 b1 a2) by assumption.
    rewrite Zmult_mod, E, <- Zmult_mod. f_equal. ring.
  Qed.
End Sub.
