(* AioToy: a toy MAC and a toy cipher (key stream from the most recent handle operation, like a CFB register) meeting
   prims_ok: witness for non-vacuity and for the refuted IV statement. *)
From Coq Require Import ZArith NArith List Bool Lia.
From LT Require Import gen_Consts CodecModel CodecLemmas AioModel AioLemmas AioRoundtrip AioIntegrity AioProgress AioFits AioTheorems.
Import ListNotations.
Local Open Scope Z_scope.

Definition toy_key (h : chist) : N :=     (* depends on the most recent operation only, like a CFB register *)
  match h with
  | OpIV x :: _ | OpCtr x :: _ | OpData x :: _ => (fold_left N.add x 1) mod 256
  | [] => 1
  end%N.
Definition toyP : prims :=
  {| maclen := 2; mac := fun x => [(N.of_nat (length x)) mod 256; (fold_left N.add x 7) mod 256]%N; blklen := 2;
     c_enc := fun h p => map (fun b => if (b <? 256)%N then ((b + toy_key h) mod 256)%N else b) p;
     c_dec := fun h p => map (fun b => if (b <? 256)%N then ((b + 256 - toy_key h) mod 256)%N else b) p |}.

Lemma toy_prims_ok : prims_ok toyP.
Proof.
  assert (K : forall h, (toy_key h < 256)%N).
  { intros h. unfold toy_key. destruct h as [|[x|x|x] r]; try (apply N.mod_lt; discriminate). reflexivity. }
  constructor.
  - cbn. lia.
  - reflexivity.
  - intros h p F. cbn [toyP c_enc c_dec]. rewrite map_map. rewrite <- (map_id p) at 2. apply map_ext_in.
    intros b Hb. unfold isbytes in F. rewrite Forall_forall in F. specialize (F b Hb). specialize (K h).
    destruct (N.ltb_spec b 256); [|lia].
    destruct (N.ltb_spec ((b + toy_key h) mod 256) 256) as [_|X]; [|pose proof (N.mod_lt (b + toy_key h) 256); lia].
    destruct (N.ltb_spec (b + toy_key h) 256).
    + rewrite (N.mod_small (b + toy_key h)) by assumption.
      replace (b + toy_key h + 256 - toy_key h)%N with (b + 1 * 256)%N by lia.
      rewrite N.mod_add by discriminate. now apply N.mod_small.
    + replace ((b + toy_key h) mod 256)%N with (b + toy_key h - 256)%N
        by (apply N.mod_unique with 1%N; lia).
      replace (b + toy_key h - 256 + 256 - toy_key h)%N with b by lia. now apply N.mod_small.
  - intros h p. cbn. apply map_length.
  - intros h p F. cbn [toyP c_enc]. unfold isbytes in *. rewrite Forall_forall in *. intros x Hx.
    apply in_map_iff in Hx. destruct Hx as [b [<- Hb]]. specialize (F b Hb).
    destruct (N.ltb_spec b 256); [apply N.mod_lt; discriminate|lia].
Qed.

Lemma toy_link_fits : link_fits toyP.
Proof. unfold link_fits, rec_bound. vm_compute. split; [discriminate|reflexivity]. Qed.

Definition cfg_of (a e ch nb : bool) : cfg := {| auth := a; encr := e; chunked := ch; nonblock := nb |}.

(* "if only the IV block of an honest authenticated + encrypted wire is replaced (every record untouched), the deliveries
   are still a prefix of what was sent" -- false on a stream-mode (CFB-like) link: *)
Definition iv_free_integrity : Prop :=
  forall P c iv iv' ms w sst, prims_ok P -> length iv = blklen P -> length iv' = blklen P ->
    auth c = true -> encr c = true ->
    send_all P c iv (sstate0 c iv) ms = Some (w, sst) ->
    exists n, stream_deliveries P c iv rstate0 (iv' ++ skipn (blklen P) w) = firstn n ms.

Definition toy_c : cfg := cfg_of true true false false.
(* without the return clause the elaborator normalises the scrutinee when it looks for it in the expected type;
   with send_all opaque it gives up three times sooner *)
Opaque send_all.
Definition toy_w : bytes := match send_all toyP toy_c [3; 9]%N (sstate0 toy_c [3; 9]%N) [5; 7; 9] with Some (w, _) => w | None => [] end.
Transparent send_all.

(* the witness: IV [3;9] replaced by [4;9], all three records untouched: the first message is dropped (its MAC verifies,
   the sequence number advances, the plaintext is garbage), the second and third are delivered.
   One evaluation of the session: the sender runs once and the tampered stream is read once. *)
Lemma toy_session :
  match send_all toyP toy_c [3; 9]%N (sstate0 toy_c [3; 9]%N) [5; 7; 9] with
  | Some (w, _) => firstn 2 w = [3; 9]%N /\ stream_deliveries toyP toy_c [3; 9]%N rstate0 ([4; 9]%N ++ skipn 2 w) = [7; 9]
  | None => False
  end.
Proof. vm_compute. split; reflexivity. Qed.

Lemma iv_tamper_witness :
  send_all toyP toy_c [3; 9]%N (sstate0 toy_c [3; 9]%N) [5; 7; 9] <> None /\
  stream_deliveries toyP toy_c [3; 9]%N rstate0 ([3; 9]%N ++ skipn 2 toy_w) = [5; 7; 9] /\
  stream_deliveries toyP toy_c [3; 9]%N rstate0 ([4; 9]%N ++ skipn 2 toy_w) = [7; 9].
Proof.
  pose proof toy_session as T. unfold toy_w.
  destruct (send_all toyP toy_c [3; 9]%N (sstate0 toy_c [3; 9]%N) [5; 7; 9]) as [[w sst]|] eqn:S; [|contradiction].
  destruct T as [I T]. split; [discriminate|]. split; [|exact T].
  replace ([3; 9]%N ++ skipn 2 w) with w by (rewrite <- I; symmetry; apply firstn_skipn).
  exact (stream_roundtrip toyP toy_c [3; 9]%N _ w sst toy_prims_ok eq_refl S).
Qed.

Theorem iv_tamper_refuted : ~ iv_free_integrity.
Proof.
  intros H. pose proof toy_session as T.
  destruct (send_all toyP toy_c [3; 9]%N (sstate0 toy_c [3; 9]%N) [5; 7; 9]) as [[w sst]|] eqn:S; [|contradiction].
  destruct (H toyP toy_c [3; 9]%N [4; 9]%N [5; 7; 9] w sst toy_prims_ok eq_refl eq_refl eq_refl eq_refl S) as [n Hn].
  change (blklen toyP) with 2%nat in Hn. rewrite (proj2 T) in Hn.
  destruct n as [|[|[|[|n]]]]; cbn [firstn] in Hn; discriminate.
Qed.

(* a session on the toy link, evaluated once per mode: Send accepts ms, and the schedule (built from the wire it wrote)
   delivers them all and ends settled *)
Definition toy_delivers (c : cfg) (ms : list Z) (evs : bytes -> list event) : Prop :=
  match send_all toyP c [3; 9]%N (sstate0 c [3; 9]%N) ms with
  | Some (w, _) =>
    let '(os, st, pipe) := run toyP c [3; 9]%N rstate0 [] (evs w) in delivered os = ms /\ pipe = [] /\ r_buf st = []
  | None => False
  end.

Lemma toy_delivers_accepts c ms evs : toy_delivers c ms evs ->
  exists w sst, send_all toyP c [3; 9]%N (sstate0 c [3; 9]%N) ms = Some (w, sst).
Proof. unfold toy_delivers. destruct (send_all toyP c [3; 9]%N (sstate0 c [3; 9]%N) ms) as [[w sst]|]; [eauto|contradiction]. Qed.

(* bytes arrive split inside the IV and inside a tag *)
Definition toy_schedule (w : bytes) : list event :=
  [Feed (firstn 1 w); Call; Call; Feed (firstn 60 (skipn 1 w)); Call; Call; Feed (skipn 61 w)] ++ repeat Call 12.

Lemma toy_sessions c :
  In c [cfg_of true true false false; cfg_of true true true false; cfg_of false true false true; cfg_of true false false false] ->
  toy_delivers c [0; 5; 2 ^ 256; 4242424242] toy_schedule.
Proof. intros H. cbn [In] in H. destruct H as [<-|[<-|[<-|[<-|[]]]]]; vm_compute; auto. Qed.

Lemma toy_accepts_nonblock : exists w sst,
  send_all toyP (cfg_of true true true true) [3; 9]%N (sstate0 (cfg_of true true true true) [3; 9]%N) [0; 5; 2 ^ 256; 4242424242]
  = Some (w, sst).
Proof. vm_compute. eauto. Qed.
