(* C09 -- Arithmetic primitives agree with their mathematical definition.
   Property theorems: each is closed by a lemma of the files below and followed by Print Assumptions; the Examples at the end
   are closed by evaluation. *)
From Coq Require Import ZArith Znumtheory List Lia Bool.
From LT Require Import gen_Consts Zbase PowmModel PowmLemmas SqrtModel SqrtLemmas InterpModel InterpLemmas PrimeModel PrimeLemmas.
From LT Require CheckGroupLemmas.
Import ListNotations.
Local Open Scope Z_scope.

(* mpz_invert as modelled: Some x is the inverse in [0,p); None exactly for non-units *)
Theorem C09_invm_some : forall a p x, invm a p = Some x -> 0 < p /\ 0 <= x < p /\ (a * x) mod p = 1 mod p.
Proof. exact invm_some. Qed.
Print Assumptions C09_invm_some.

Theorem C09_invm_none : forall a p, 0 < p -> (invm a p = None <-> Z.gcd a p <> 1).
Proof. exact invm_none. Qed.
Print Assumptions C09_invm_none.

(* what "plain modular exponentiation" means, negative exponents included *)
Theorem C09_powm_ref_spec : forall m x p r, 0 < p -> powm_ref m x p = Some r ->
  0 <= r < p /\ (0 <= x -> r = m ^ x mod p) /\ (x < 0 -> (r * m ^ (- x)) mod p = 1 mod p).
Proof. exact powm_ref_spec. Qed.
Print Assumptions C09_powm_ref_spec.

(* constant-time power: every odd modulus, every unit base, every exponent (negative, zero, positive,
   also exponents sharing a factor with p: a dummy value without inverse is replaced by 1, fix ee6160d) *)
Theorem C09_spowm_ok : forall m x p, 0 < p -> Z.odd p = true -> Z.gcd m p = 1 ->
  exists r, spowm m x p = Ok r /\ powm_ref m x p = Some r.
Proof. exact spowm_ok. Qed.
Print Assumptions C09_spowm_ok.

Theorem C09_spowm_even_throws : forall m x p, Z.even p = true -> spowm m x p = ThrowEven.
Proof. exact spowm_even_throws. Qed.
Print Assumptions C09_spowm_even_throws.

(* table powers: exact characterisation for every base (unit or not), exponent within the table *)
Theorem C09_fpowm_eq : forall m x p t tab, 1 < p ->
  fpowm_precompute m p t = Some tab -> bitlen x <= Z.min t TMCG_MAX_FPOWM_T ->
  fpowm tab m x p = outcome_of (powm_ref m x p).
Proof. exact fpowm_eq. Qed.
Print Assumptions C09_fpowm_eq.

Theorem C09_fpowm_ok : forall m x p t tab, 1 < p -> Z.gcd m p = 1 ->
  fpowm_precompute m p t = Some tab -> bitlen x <= Z.min t TMCG_MAX_FPOWM_T ->
  exists r, fpowm tab m x p = Ok r /\ powm_ref m x p = Some r.
Proof. exact fpowm_ok. Qed.
Print Assumptions C09_fpowm_ok.

Theorem C09_fpowm_ui_ok : forall m x p t tab, 1 < p -> 0 <= x ->
  fpowm_precompute m p t = Some tab -> bitlen x <= Z.min t TMCG_MAX_FPOWM_T ->
  fpowm_ui tab m x p = Ok (m ^ x mod p).
Proof. exact fpowm_ui_eq. Qed.
Print Assumptions C09_fpowm_ui_ok.

Theorem C09_fspowm_ok : forall m x p t tab, 1 < p -> Z.gcd m p = 1 ->
  fpowm_precompute m p t = Some tab -> bitlen x <= Z.min t TMCG_MAX_FPOWM_T ->
  exists r, fspowm tab m x p = Ok r /\ powm_ref m x p = Some r.
Proof. exact fspowm_ok. Qed.
Print Assumptions C09_fspowm_ok.

(* the side-channel protected table power throws for non-units where fpowm answers: exact behaviour *)
Theorem C09_fspowm_eq : forall m x p t tab, 1 < p ->
  fpowm_precompute m p t = Some tab -> bitlen x <= Z.min t TMCG_MAX_FPOWM_T ->
  fspowm tab m x p = match invm (powm m (Z.abs x) p) p with
                     | None => ThrowInvert
                     | Some i => Ok (if x <? 0 then i else powm m x p)
                     end.
Proof. exact fspowm_eq. Qed.
Print Assumptions C09_fspowm_eq.

Theorem C09_wrong_base_throws : forall m m' x p t tab, fpowm_precompute m' p t = Some tab -> m <> m' ->
  fpowm tab m x p = ThrowWrongBase /\ fpowm_ui tab m x p = ThrowWrongBase /\ fspowm tab m x p = ThrowWrongBase.
Proof. exact wrong_base_throws. Qed.
Print Assumptions C09_wrong_base_throws.

Theorem C09_too_large_throws : forall m x p t tab, fpowm_precompute m p t = Some tab ->
  TMCG_MAX_FPOWM_T < bitlen x -> fpowm tab m x p = ThrowTooLarge /\ fspowm tab m x p = ThrowTooLarge.
Proof. exact too_large_throws. Qed.
Print Assumptions C09_too_large_throws.

(* the gap: an exponent longer than the table the caller asked for, but within the global limit, is not
   rejected -- the result is silently 0.  The full-strength statement "bitlen x <= TMCG_MAX_FPOWM_T suffices" is refuted. *)
Theorem C09_fpowm_gap_zero : forall m x p t tab, fpowm_precompute m p t = Some tab -> 1 <= t -> 0 < x ->
  t < bitlen x <= TMCG_MAX_FPOWM_T -> fpowm tab m x p = Ok 0 /\ fpowm_ui tab m x p = Ok 0.
Proof. exact fpowm_gap_zero. Qed.
Print Assumptions C09_fpowm_gap_zero.

Theorem C09_fpowm_limit_only_refuted : exists m x p t tab, 1 < p /\ Z.gcd m p = 1 /\
  fpowm_precompute m p t = Some tab /\ 1 <= t /\ bitlen x <= TMCG_MAX_FPOWM_T /\ 0 < x /\
  fpowm tab m x p = Ok 0 /\ m ^ x mod p <> 0.
Proof. exact fpowm_gap_refuted. Qed.
Print Assumptions C09_fpowm_limit_only_refuted.

(* square roots modulo a prime; residues and non-residues in Euler's form *)
Theorem C09_sqrtmp_3mod4 : forall a p b, 0 < p -> p mod 4 = 3 -> a <> 0 -> powm a ((p - 1) / 2) p = 1 ->
  exists r, sqrtmp_with a p b = SqOk r /\ 0 <= r < p /\ (r * r) mod p = a mod p.
Proof. exact sqrt_ok_3mod4. Qed.
Print Assumptions C09_sqrtmp_3mod4.

Theorem C09_sqrtmp_5mod8 : forall a p b, prime p -> p mod 8 = 5 -> a <> 0 ->
  powm a ((p - 1) / 2) p = 1 -> powm b ((p - 1) / 2) p = p - 1 ->
  exists r, sqrtmp_with a p b = SqOk r /\ 0 <= r < p /\ (r * r) mod p = a mod p.
Proof. exact sqrt_ok_5mod8. Qed.
Print Assumptions C09_sqrtmp_5mod8.

(* every prime (2 through the guard `p = 2` in front, commit 03c88a4; odd primes: all classes modulo 8, Tonelli-Shanks loops included), every residue *)
Theorem C09_sqrtmp_ok : forall a p b, prime p -> a <> 0 ->
  powm a ((p - 1) / 2) p = 1 -> powm b ((p - 1) / 2) p = p - 1 ->
  exists r, sqrtmp_with a p b = SqOk r /\ 0 <= r < p /\ (r * r) mod p = a mod p.
Proof. exact sqrtmp_ok. Qed.
Print Assumptions C09_sqrtmp_ok.

(* every product of two primes (Blum or not), any Bezout pair: four roots and the chosen one square back *)
Theorem C09_sqrtmn_two_primes_ok : forall a p q u v bp bq, prime p -> prime q -> a <> 0 ->
  u * p + v * q = 1 ->
  powm a ((p - 1) / 2) p = 1 -> powm bp ((p - 1) / 2) p = p - 1 ->
  powm a ((q - 1) / 2) q = 1 -> powm bq ((q - 1) / 2) q = q - 1 ->
  (exists r, sqrtmn_all_with a p q (p * q) u v bp bq = inl (Some r) /\ all_square a (p * q) r) /\
  (exists r, sqrtmn_with a p q (p * q) u v bp bq = SqOk r /\ (r * r) mod (p * q) = a mod (p * q)).
Proof. exact sqrtmn_two_primes_ok. Qed.
Print Assumptions C09_sqrtmn_two_primes_ok.

(* square roots modulo n = p*q: all four CRT roots (and the chosen smallest) square back, for any Bezout pair *)
Theorem C09_sqrtmn_all_ok : forall a p q u v bp bq, 0 < p -> 0 < q -> u * p + v * q = 1 ->
  sqrt_ok a p bp -> sqrt_ok a q bq ->
  exists r, sqrtmn_all_with a p q (p * q) u v bp bq = inl (Some r) /\ all_square a (p * q) r.
Proof. exact sqrtmn_all_ok. Qed.
Print Assumptions C09_sqrtmn_all_ok.

Theorem C09_sqrtmn_ok : forall a p q u v bp bq, 0 < p -> 0 < q -> u * p + v * q = 1 ->
  sqrt_ok a p bp -> sqrt_ok a q bq ->
  exists r, sqrtmn_with a p q (p * q) u v bp bq = SqOk r /\ (r * r) mod (p * q) = a mod (p * q).
Proof. exact sqrtmn_ok. Qed.
Print Assumptions C09_sqrtmn_ok.

(* Blum integers, the precomputed path used for signing/decryption and card secrets *)
Theorem C09_sqrtmn_fast_blum_ok : forall a p q u v, 0 < p -> 0 < q -> p mod 4 = 3 -> q mod 4 = 3 -> u * p + v * q = 1 ->
  powm a ((p - 1) / 2) p = 1 -> powm a ((q - 1) / 2) q = 1 ->
  all_square a (p * q) (sqrtmn_fast_all a p q (p * q) (u * p) (v * q) ((p + 1) / 4) ((q + 1) / 4)) /\
  let r := sqrtmn_fast a p q (p * q) (u * p) (v * q) ((p + 1) / 4) ((q + 1) / 4) in
  (r * r) mod (p * q) = a mod (p * q).
Proof. exact sqrtmn_fast_ok. Qed.
Print Assumptions C09_sqrtmn_fast_blum_ok.

(* the prime 2: every argument (zero included) is answered by the guard and squares back *)
Theorem C09_sqrtmp_modulus_2 : forall a b, exists r, sqrtmp_with a 2 b = SqOk r /\ 0 <= r < 2 /\ (r * r) mod 2 = a mod 2.
Proof. exact sqrt_ok_2. Qed.
Print Assumptions C09_sqrtmp_modulus_2.

(* interpolation: whenever the routine returns true (any modulus q > 1, any points, reduced or not), the
   returned polynomial has one coefficient per point and passes through every point *)
Theorem C09_interpolate_reproduces_points : forall q, 1 < q -> forall pts f, interpolate pts q = IpOk f ->
  length f = length pts /\ forall a b, In (a, b) pts -> peval f a q = b mod q.
Proof. exact interpolate_sound. Qed.
Print Assumptions C09_interpolate_reproduces_points.

(* ... for pairwise distinct abscissae modulo a prime it does return true, and it returns false as soon as an
   abscissa collides with an earlier one *)
Theorem C09_interpolate_succeeds : forall q, prime q -> forall pts, pts <> [] ->
  (forall pre a b post, pts = pre ++ (a, b) :: post -> fresh q a pre) ->
  exists f, interpolate pts q = IpOk f.
Proof. exact interpolate_complete. Qed.
Print Assumptions C09_interpolate_succeeds.

Theorem C09_interpolate_collision_false : forall q, prime q -> forall pre post a b a' b',
  In (a', b') pre -> (a - a') mod q = 0 -> interpolate (pre ++ (a, b) :: post) q = IpFalse.
Proof. intros q Pq. exact (interpolate_collision q (prime_gt1 q Pq)). Qed.
Print Assumptions C09_interpolate_collision_false.

(* prime generators: postconditions of the acceptance logic, for every primality oracle is_prime (Miller-Rabin in the code).
   tmcg_mpz_lprime is modelled completely (candidates are inputs); for the safe-prime search the start value and the final
   acceptance are modelled (the rejection-only sieves are not), see PrimeModel.v *)
Theorem C09_lprime_post : forall is_prime psize qsize qcands kcands p q k,
  lprime_run is_prime psize qsize qcands kcands = GenOk p q k ->
  p = q * k + 1 /\ Z.even k = true /\ Z.gcd k q = 1 /\ psize <= bitlen p /\ qsize <= bitlen q /\
  is_prime p = true /\ is_prime q = true /\ qsize < psize.
Proof. exact lprime_post. Qed.
Print Assumptions C09_lprime_post.

Theorem C09_lprime_sizes_throw : forall is_prime psize qsize qcands kcands, psize <= qsize ->
  lprime_run is_prime psize qsize qcands kcands = GenThrow.
Proof. exact lprime_sizes_throw. Qed.
Print Assumptions C09_lprime_sizes_throw.

Theorem C09_sprime_post : forall is_prime t qsize qraw q p, 0 <= qraw ->
  sprime_accepts is_prime t qsize qraw q p = true ->
  p = 2 * q + 1 /\ Z.odd q = true /\ qsize <= bitlen q /\ qsize + 1 <= bitlen p /\
  extra_test t p = true /\ is_prime q = true /\ (powm 2 q p = 1 \/ powm 2 q p = p - 1).
Proof. exact sprime_post. Qed.
Print Assumptions C09_sprime_post.

Theorem C09_sprime3mod4_post : forall is_prime psize qraw q p, 0 <= qraw ->
  sprime_accepts is_prime Test3mod4 (psize - 1) qraw q p = true -> p mod 4 = 3 /\ psize <= bitlen p /\ p = 2 * q + 1.
Proof. exact sprime3mod4_post. Qed.
Print Assumptions C09_sprime3mod4_post.

Theorem C09_sprime2g_post : forall is_prime qsize qraw q p, 0 <= qraw ->
  sprime_accepts is_prime Test7mod8 qsize qraw q p = true -> p mod 8 = 7 /\ p = 2 * q + 1 /\ qsize <= bitlen q.
Proof. exact sprime2g_post. Qed.
Print Assumptions C09_sprime2g_post.

Example C09_nonvacuous_spowm : spowm 2 7 7 = Ok 2 /\ spowm 2 3 9 = Ok 8 /\ spowm 3 (-2) 7 = Ok 4.
Proof. repeat split; reflexivity. Qed.
Example C09_nonvacuous_sqrt5 : prime 13 /\ 13 mod 8 = 5 /\ powm 10 6 13 = 1 /\ powm 2 6 13 = 12 /\ sqrtmp_with 10 13 2 = SqOk 7.
Proof.
  split; [|repeat split; reflexivity]. now apply CheckGroupLemmas.trial_prime_iff.
Qed.
Example C09_nonvacuous_interp : interpolate [(1, 2); (3, 1); (5, 6)] 7 = IpOk [3; 0; 6].
Proof. vm_compute. reflexivity. Qed.
Example C09_nonvacuous_lprime : lprime_run (fun z => (z =? 11) || (z =? 23)) 5 4 [9; 11] [1; 3; 2] = GenOk 23 11 2.
Proof. vm_compute. reflexivity. Qed.
Example C09_nonvacuous_blum : 3 * 7 + (-2) * 11 = -1 + 0 /\ (-3) * 7 + 2 * 11 = 1 /\ sqrtmn_fast 4 7 11 77 (-21) 22 2 3 = 9.
Proof. repeat split; reflexivity. Qed.
