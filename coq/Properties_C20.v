(* C20 -- OpenPGP signatures and encryption are tamper-evident.
   The property theorems, each closed by `exact <lemma>` and followed by Print Assumptions, then examples.
   The model (PgpSigModel.v) fixes what is hashed, when a signature is valid and when decrypted data is
   released; hash, cipher, AEAD and public-key primitives are parameters (universally quantified). *)
From Coq Require Import ZArith NArith List Lia.
From LT Require Import PgpCodecModel PgpSigModel PgpSigLemmas.
Import ListNotations.
Local Open Scope N_scope.

(* the hashed octets determine the whole trailer and the signed octets: no two different signed objects or
   trailers share a hash input (v4; trailer shorter than 2^32, which the two-octet subpacket length enforces) *)
Theorem C20_sig_hash_input_inj : forall o1 o2 t1 t2, len t1 < 4294967296 -> len t2 < 4294967296 ->
  hash_input_v4 o1 t1 = hash_input_v4 o2 t2 -> t1 = t2 /\ signed_octets_v4 o1 = signed_octets_v4 o2.
Proof. exact hash_input_v4_inj. Qed.
Print Assumptions C20_sig_hash_input_inj.

Theorem C20_sig_hash_input_inj_v5 : forall o1 o2 t1 t2, len t1 < 18446744073709551616 -> len t2 < 18446744073709551616 ->
  hash_input_v5 o1 t1 = hash_input_v5 o2 t2 -> t1 = t2 /\ signed_octets_v5 o1 = signed_octets_v5 o2.
Proof. exact hash_input_v5_inj. Qed.
Print Assumptions C20_sig_hash_input_inj_v5.

(* type, public-key algorithm, hash algorithm and every hashed subpacket octet are bound *)
Theorem C20_sig_trailer_inj : forall ty1 pk1 h1 hs1 ty2 pk2 h2 hs2,
  sig_trailer_v4 ty1 pk1 h1 hs1 = sig_trailer_v4 ty2 pk2 h2 hs2 -> ty1 = ty2 /\ pk1 = pk2 /\ h1 = h2 /\ hs1 = hs2.
Proof. exact sig_trailer_v4_inj. Qed.
Print Assumptions C20_sig_trailer_inj.

Theorem C20_certification_binds_key_and_uid : forall k1 u1 k2 u2, len k1 < 65536 -> len k2 < 65536 ->
  signed_octets_v4 (SoCertUid k1 u1) = signed_octets_v4 (SoCertUid k2 u2) -> k1 = k2 /\ u1 = u2.
Proof. exact signed_octets_cert_inj. Qed.
Print Assumptions C20_certification_binds_key_and_uid.

Theorem C20_binding_binds_both_keys : forall p1 s1 p2 s2,
  len p1 < 65536 -> len p2 < 65536 -> len s1 < 65536 -> len s2 < 65536 ->
  signed_octets_v4 (SoSubkey p1 s1) = signed_octets_v4 (SoSubkey p2 s2) -> p1 = p2 /\ s1 = s2.
Proof. exact signed_octets_subkey_inj. Qed.
Print Assumptions C20_binding_binds_both_keys.

Theorem C20_uid_uat_separated : forall k1 u1 k2 u2, len k1 < 65536 -> len k2 < 65536 ->
  signed_octets_v4 (SoCertUid k1 u1) <> signed_octets_v4 (SoCertUat k2 u2).
Proof. exact signed_octets_uid_uat_distinct. Qed.
Print Assumptions C20_uid_uat_separated.

(* text signatures: canonicalising twice changes nothing (a line feed without carriage return gets one; a bare
   carriage return is left as it is) *)
Theorem C20_text_canon_idempotent : forall d, text_canon (text_canon d) = text_canon d.
Proof. exact text_canon_idem. Qed.
Print Assumptions C20_text_canon_idempotent.

(* canonical text form: the canonicalised text has a carriage return before every line feed, and a text that already has
   it is hashed unchanged -- binary and text signatures over a CR LF document hash the same octets *)
Theorem C20_text_canon_canonical : forall d, canonical_text (text_canon d) = true.
Proof. exact text_canon_canonical. Qed.
Print Assumptions C20_text_canon_canonical.

Theorem C20_text_canon_fixed : forall d, canonical_text d = true -> text_canon d = d.
Proof. exact text_canon_fixed. Qed.
Print Assumptions C20_text_canon_fixed.

(* version 3 document signatures (read, never written by the library): data, type and creation time are bound *)
Theorem C20_sig_hash_input_inj_v3 : forall d1 d2 ty1 ty2 t1 t2, t1 < 4294967296 -> t2 < 4294967296 ->
  hash_input_v3 (SoBinary d1) (sig_trailer_v3 ty1 t1) = hash_input_v3 (SoBinary d2) (sig_trailer_v3 ty2 t2) ->
  d1 = d2 /\ ty1 = ty2 /\ t1 = t2.
Proof. exact hash_input_v3_doc_inj. Qed.
Print Assumptions C20_sig_hash_input_inj_v3.

(* MPI normalisation: leading zero octets of R and S are lost in the MPI encoding; the verifier hands the primitive
   octet strings with exactly the values of the MPIs, padded back to 32 octets when shorter *)
Theorem C20_eddsa_sigval_values : forall r s a b, eddsa_sigval r s = Some (a, b) -> be_value a = r /\ be_value b = s.
Proof. exact eddsa_sigval_values. Qed.
Print Assumptions C20_eddsa_sigval_values.

Theorem C20_eddsa_sigval_padded : forall r s a b, eddsa_sigval r s = Some (a, b) ->
  ((mpi_octets r < 32)%nat -> length a = 32%nat) /\ ((mpi_octets s < 32)%nat -> length b = 32%nat).
Proof. exact eddsa_sigval_padded. Qed.
Print Assumptions C20_eddsa_sigval_padded.

(* validity: exactly "not expired, not older than its key, not dated more than 25 h ahead, strong hash" *)
Theorem C20_validity_rules_iff : forall current creation expiration keycreation h,
  check_validity current creation expiration keycreation h = Valid <->
  ((expiration = 0 \/ current <= creation + expiration) /\ keycreation <= creation /\
   creation <= current + 90000 /\ strong_hash h = true)%Z.
Proof. exact validity_rules_iff. Qed.
Print Assumptions C20_validity_rules_iff.

Theorem C20_weak_hashes_refused : strong_hash 1 = false /\ strong_hash 2 = false /\ strong_hash 3 = false /\
  strong_hash 11 = false /\ strong_hash 0 = false.
Proof. exact weak_hashes_refused. Qed.
Print Assumptions C20_weak_hashes_refused.

(* for every verification primitive: acceptance implies the primitive accepted the recomputed hash *)
Theorem C20_check_integrity_sound : forall verify pk left hash,
  check_integrity verify pk left hash = true ->
  sig_algo_of pk <> SigUnsupported /\ verify (sig_algo_of pk) hash = true /\ (length left = 2%nat -> left = left16 hash).
Proof. exact check_integrity_sound. Qed.
Print Assumptions C20_check_integrity_sound.

(* for every hash, cipher and AEAD primitive: plaintext is only released under integrity protection *)
Theorem C20_decrypt_requires_integrity : forall sha1 cfb aead ok m out,
  decrypt sha1 cfb aead ok m = DecOk out ->
  ok = true /\ enc_data m <> [] /\
  ((have_aead m = true /\ aead (enc_data m) = Some out) \/
   (have_aead m = false /\ have_seipd m = true /\
    exists prefix body mdc, cfb (enc_data m) = Some (prefix, out) /\ out = body ++ [211; 20] ++ mdc /\
      length mdc = 20%nat /\ mdc = sha1 (mdc_input prefix body))).
Proof. exact decrypt_requires_integrity. Qed.
Print Assumptions C20_decrypt_requires_integrity.

Theorem C20_unprotected_refused : forall sha1 cfb aead ok m,
  have_aead m = false -> have_seipd m = false -> forall out, decrypt sha1 cfb aead ok m <> DecOk out.
Proof. exact decrypt_unprotected_refused. Qed.
Print Assumptions C20_unprotected_refused.

(* AEAD: chunk index and total length enter the associated data injectively; chunk and final data differ *)
Theorem C20_chunk_binding : forall pre i j, i < 18446744073709551616 -> j < 18446744073709551616 ->
  chunk_ad pre i = chunk_ad pre j -> i = j.
Proof. exact chunk_ad_inj. Qed.
Print Assumptions C20_chunk_binding.

Theorem C20_final_tag_binding : forall pre i j s t,
  i < 18446744073709551616 -> j < 18446744073709551616 -> s < 18446744073709551616 -> t < 18446744073709551616 ->
  final_ad pre i s = final_ad pre j t -> i = j /\ s = t.
Proof. exact final_ad_inj. Qed.
Print Assumptions C20_final_tag_binding.

Theorem C20_chunk_final_separated : forall pre i j t, chunk_ad pre i <> final_ad pre j t.
Proof. exact chunk_final_ad_distinct. Qed.
Print Assumptions C20_chunk_final_separated.

Theorem C20_aead_chunk_count : forall cs n, 1 <= n -> dec_full_chunks cs (enc_ct_len cs n) = enc_full_chunks cs n.
Proof. exact aead_chunk_count. Qed.
Print Assumptions C20_aead_chunk_count.

(* refuted: "every chunk gets its own nonce" -- the in-place update makes chunk 3 reuse the nonce of chunk 0 *)
Theorem C20_chunk_nonce_unique_refuted : forall iv, chunk_nonce_impl iv 3 = chunk_nonce_impl iv 0.
Proof. exact chunk_nonce_unique_refuted. Qed.
Print Assumptions C20_chunk_nonce_unique_refuted.

Example C20_example_validity : check_validity 1000000 999000 0 998000 8 = Valid
  /\ check_validity 1000000 999000 500 998000 8 = Expired
  /\ check_validity 1000000 997000 0 998000 8 = OlderThanKey
  /\ check_validity 1000000 1090001 0 998000 8 = FarFuture
  /\ check_validity 1000000 999000 0 998000 2 = WeakHash.
Proof. vm_compute. repeat split. Qed.
Example C20_example_hash_input :
  hash_input_v4 (SoBinary [97]) (sig_trailer_v4 0 1 8 []) = [97; 4; 0; 1; 8; 0; 0; 4; 255; 0; 0; 0; 6].
Proof. vm_compute. reflexivity. Qed.
Example C20_example_text : text_canon [97; 10; 98; 13; 10; 10] = [97; 13; 10; 98; 13; 10; 13; 10].
Proof. vm_compute. reflexivity. Qed.
Example C20_example_nonce : chunk_nonce_impl (repeat 0 16) 2 <> chunk_nonce_rfc (repeat 0 16) 2.
Proof. vm_compute. discriminate. Qed.

(* decoding of the signature fields keeps signature expiration and key expiration apart (subpackets 3 and 9);
   outside a key block the key expiration is dropped *)
Example C20_example_sig_fields :
  let body := [4; 19; 19; 8; 0; 18; 5; 2; 0; 0; 1; 0; 5; 3; 0; 0; 0; 7; 5; 9; 0; 0; 0; 9; 170; 187] in
  option_map (fun f => (sf_created f, sf_sigexp f, sf_keyexp f)) (sig_body_fields true body) = Some (256, 7, 9) /\
  option_map (fun f => (sf_created f, sf_sigexp f, sf_keyexp f)) (sig_body_fields false body) = Some (256, 7, 0).
Proof. vm_compute. split; reflexivity. Qed.

Example C20_example_verify_input :
  verify_hash_input 5 0 17 8 [] 7 v5_meta_detached false [97] = Some [97; 5; 0; 17; 8; 0; 0; 0; 0; 0; 0; 0; 0; 5; 255; 0; 0; 0; 0; 0; 0; 0; 12]
  /\ verify_hash_input 3 1 17 8 [] 7 [] true [10] = Some [13; 10; 1; 0; 0; 0; 7].
Proof. vm_compute. split; reflexivity. Qed.
