(* C18 -- Oblivious transfer delivers exactly the chosen message.
   Property theorems: each is closed by a lemma of OtLemmas.v and followed by Print Assumptions; the Examples are closed by evaluation.
   Group hypotheses (premises of the theorems about runs; the *_aborts_iff and is_elem theorems have none): p prime, q prime, 1 < g < p-1, g^q = 1 (mod p) -- what CheckGroup
   establishes (C06); the lemmas need 1 < p, 0 < q and g^q = 1 only, except for C18_other_opens_iff.  Coins are the values returned by tmcg_mpz_srandomm, all >= 0. *)
From Coq Require Import ZArith Znumtheory List Lia.
From LT Require Import Zbase CodecModel CheckGroupModel CheckGroupLemmas OtModel OtLemmas.
Import ListNotations.
Local Open Scope Z_scope.

Definition ot_group (p q g : Z) : Prop := prime p /\ prime q /\ 1 < g < p - 1 /\ g ^ q mod p = 1.

(* 1-of-N: for every N, index, message vector and all coins the chooser outputs M_sigma (mod p) -- unless two of the
   chooser's query elements coincide (a random c_i hit another one or ab), in which case the sender refuses *)
Theorem C18_ot_n_correct : forall p q g, prime p -> prime q -> 1 < g < p - 1 -> g ^ q mod p = 1 ->
  forall Ms sigma a b cs coins,
  0 <= a -> 0 <= b -> Forall (fun c => 0 <= c) cs -> Forall nonneg2 coins ->
  length cs = length Ms -> length coins = length Ms -> (sigma < length Ms)%nat ->
  let '(x, y, zs) := choose_n_first p q g sigma a b cs in
  match send_n p q g Ms x y zs coins with
  | Some resp => choose_second p q sigma b resp = Some (nth sigma Ms 0 mod p)
  | None => ~ NoDup zs
  end.
Proof. intros p q g _ Pq Hg. apply ot_n_correct; [lia|destruct Pq; lia]. Qed.
Print Assumptions C18_ot_n_correct.

Theorem C18_ot_2_correct : forall p q g, prime p -> prime q -> 1 < g < p - 1 -> g ^ q mod p = 1 ->
  forall M0 M1 sigma a b c r0 s0 r1 s1,
  0 <= a -> 0 <= b -> 0 <= c -> 0 <= r0 -> 0 <= s0 -> 0 <= r1 -> 0 <= s1 -> (sigma < 2)%nat ->
  let '(x, y, zs) := choose_2_first p q g sigma a b c in
  match send_2 p q g M0 M1 x y (nth 0 zs 0) (nth 1 zs 0) r0 s0 r1 s1 with
  | Some resp => choose_second p q sigma b resp = Some (nth sigma [M0; M1] 0 mod p)
  | None => nth 0 zs 0 = nth 1 zs 0
  end.
Proof. intros p q g _ Pq Hg. apply ot_2_correct; [lia|destruct Pq; lia]. Qed.
Print Assumptions C18_ot_2_correct.

(* optimised 1-of-N: always succeeds *)
Theorem C18_ot_opt_correct : forall p q g, prime p -> prime q -> 1 < g < p - 1 -> g ^ q mod p = 1 ->
  forall Ms sigma a b coins,
  0 <= a -> 0 <= b -> Forall nonneg2 coins -> length coins = length Ms -> (sigma < length Ms)%nat ->
  exists x y z0, choose_opt_first p q g sigma a b = Some (x, y, z0) /\
  exists resp, send_opt p q g Ms x y z0 coins = Some resp /\
  choose_second p q sigma b resp = Some (nth sigma Ms 0 mod p).
Proof. intros p q g _ Pq Hg. apply ot_opt_correct; [lia|destruct Pq; lia]. Qed.
Print Assumptions C18_ot_opt_correct.

(* the sender returns false (and sends nothing: None) exactly on a non-member or on coinciding query elements *)
Theorem C18_sender_n_aborts_iff : forall p q g Ms x y zs coins,
  send_n p q g Ms x y zs coins = None <->
  ~ (is_elem p q x = true /\ is_elem p q y = true /\ Forall (fun z => is_elem p q z = true) zs /\ NoDup zs).
Proof. exact send_n_aborts_iff. Qed.
Print Assumptions C18_sender_n_aborts_iff.

Theorem C18_sender_2_aborts_iff : forall p q g M0 M1 x y z0 z1 r0 s0 r1 s1,
  send_2 p q g M0 M1 x y z0 z1 r0 s0 r1 s1 = None <->
  ~ (is_elem p q x = true /\ is_elem p q y = true /\ is_elem p q z0 = true /\ is_elem p q z1 = true /\ z0 <> z1).
Proof. exact send_2_aborts_iff. Qed.
Print Assumptions C18_sender_2_aborts_iff.

Theorem C18_sender_opt_aborts_iff : forall p q g Ms x y z0 coins,
  send_opt p q g Ms x y z0 coins = None <->
  ~ (is_elem p q x = true /\ is_elem p q y = true /\ is_elem p q z0 = true).
Proof. exact send_opt_aborts_iff. Qed.
Print Assumptions C18_sender_opt_aborts_iff.

Theorem C18_is_elem_iff : forall p q a, 0 <= q -> (is_elem p q a = true <-> 0 < a < p /\ a ^ q mod p = 1).
Proof. exact is_elem_iff. Qed.
Print Assumptions C18_is_elem_iff.

(* curious chooser: the exact value of its own decryption applied to a ciphertext it did not choose *)
Theorem C18_other_exact : forall p q g, prime p -> prime q -> 1 < g < p - 1 -> g ^ q mod p = 1 ->
  forall Ms sigma a b cs coins i,
  0 <= a -> 0 <= b -> Forall (fun c => 0 <= c) cs -> Forall nonneg2 coins ->
  length cs = length Ms -> length coins = length Ms -> (i < length Ms)%nat -> i <> sigma ->
  let '(x, y, zs) := choose_n_first p q g sigma a b cs in
  forall resp, send_n p q g Ms x y zs coins = Some resp ->
  curious p b resp i = Some ((nth i Ms 0 * powm g (((nth i cs 0 - a * b) mod q) * fst (nth i coins (0, 0))) p) mod p).
Proof. intros p q g _ Pq Hg. apply ot_n_other_exact; [lia|destruct Pq; lia]. Qed.
Print Assumptions C18_other_exact.

Theorem C18_opt_other_exact : forall p q g, prime p -> prime q -> 1 < g < p - 1 -> g ^ q mod p = 1 ->
  forall Ms sigma a b coins i,
  0 <= a -> 0 <= b -> Forall nonneg2 coins -> length coins = length Ms -> (i < length Ms)%nat ->
  forall x y z0 resp, choose_opt_first p q g sigma a b = Some (x, y, z0) -> send_opt p q g Ms x y z0 coins = Some resp ->
  curious p b resp i = Some ((nth i Ms 0 * powm g (((Z.of_nat i - Z.of_nat sigma) mod q) * fst (nth i coins (0, 0))) p) mod p).
Proof. intros p q g _ Pq Hg. apply ot_opt_other_exact; [lia|destruct Pq; lia]. Qed.
Print Assumptions C18_opt_other_exact.

(* ... and that value is the message for exactly one value of the sender's coin s_i (out of q), namely 0, whenever the
   query elements differ (which the sender has checked) and the message is not 0 mod p *)
Theorem C18_other_opens_iff : forall p q g, prime p -> prime q -> 1 < g < p - 1 -> g ^ q mod p = 1 ->
  forall M c ab s, 0 <= c -> 0 <= ab -> 0 <= s < q -> M mod p <> 0 ->
  powm g c p <> powm g (ab mod q) p ->
  ((M * powm g (((c - ab) mod q) * s) p) mod p = M mod p <-> s = 0).
Proof. intros p q g Pp Pq Hg Hgq M c ab s. apply other_opens_iff; trivial; destruct Pq; lia. Qed.
Print Assumptions C18_other_opens_iff.

(* non-vacuity: p = 23, q = 11, g = 2; N = 3, sigma = 1 *)
Example C18_nonvacuous_first : choose_n_first 23 11 2 1 3 5 [7; 9; 2] = (8, 9, [13; 16; 4]).
Proof. vm_compute. reflexivity. Qed.
Example C18_nonvacuous_run :
  exists resp, send_n 23 11 2 [4; 8; 16] 8 9 [13; 16; 4] [(1, 2); (3, 4); (5, 6)] = Some resp /\
               choose_second 23 11 1 5 resp = Some 8 /\ curious 23 5 resp 0 <> Some 4.
Proof. eexists. split; [vm_compute; reflexivity|]. split; [vm_compute; reflexivity|]. vm_compute. discriminate. Qed.
Example C18_nonvacuous_abort : send_n 23 11 2 [4; 8] 2 4 [8; 8] [(1, 2); (3, 4)] = None.
Proof. vm_compute. reflexivity. Qed.
Example C18_nonvacuous_abort_nonmember : send_n 23 11 2 [4; 8] 2 5 [8; 16] [(1, 2); (3, 4)] = None.
Proof. vm_compute. reflexivity. Qed.
