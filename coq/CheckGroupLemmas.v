(* CheckGroupLemmas: proofs about CheckGroupModel (C06). *)
From Coq Require Import ZArith Znumtheory Lia List Bool ZifyBool.
From LT Require Import Zbase CodecModel CheckGroupModel.
Import ListNotations.
Local Open Scope Z_scope.

(* the checks are cascades of tests: what it takes to come out with Accept *)
Lemma reject_if (c : bool) (v : verdict) : (if c then Reject else v) = Accept <-> c = false /\ v = Accept.
Proof. destruct c; intuition discriminate. Qed.

Lemma reject_unless (c : bool) (v : verdict) : (if negb c then Reject else v) = Accept <-> c = true /\ v = Accept.
Proof. destruct c; intuition discriminate. Qed.

(* mpz_powm(foo, x, q, p); if (foo != 1) return false: the division by zero of mpz_powm would be Crash *)
Lemma order_test (o : option Z) (v : verdict) :
  match o with None => Crash | Some t => if t =? 1 then v else Reject end = Accept <-> o = Some 1 /\ v = Accept.
Proof. destruct o as [t|]; [destruct (Z.eqb_spec t 1)|]; intuition (discriminate || congruence). Qed.

Lemma order_test_neg (o : option Z) (v : verdict) :
  match o with None => Crash | Some t => if negb (t =? 1) then Reject else v end = Accept <-> o = Some 1 /\ v = Accept.
Proof. destruct o as [t|]; [destruct (Z.eqb_spec t 1)|]; intuition (discriminate || congruence). Qed.

Lemma accept_then (o v : verdict) :
  match o with Accept => v | Reject => Reject | Crash => Crash | OutOfFuel => OutOfFuel end = Accept <-> o = Accept /\ v = Accept.
Proof. destruct o; intuition discriminate. Qed.

Lemma in_range_iff g p : in_range g p = true <-> 1 < g < p - 1.
Proof. unfold in_range. lia. Qed.

Lemma sizeinbase2_spec n : n <> 0 -> 2 ^ (sizeinbase2 n - 1) <= Z.abs n < 2 ^ sizeinbase2 n.
Proof.
  intros Hn. unfold sizeinbase2. destruct (Z.eqb_spec n 0); [contradiction|].
  replace (Z.log2 (Z.abs n) + 1 - 1) with (Z.log2 (Z.abs n)) by lia.
  replace (Z.log2 (Z.abs n) + 1) with (Z.succ (Z.log2 (Z.abs n))) by lia.
  apply Z.log2_spec. lia.
Qed.

Lemma mpz_powm_pos b e p : 0 < p -> 0 <= e -> mpz_powm b e p = Some (b ^ e mod p).
Proof.
  intros Hp He. unfold mpz_powm. destruct (Z.eqb_spec p 0); [lia|].
  destruct (Z.leb_spec 0 e); [|lia]. rewrite Z.abs_eq by lia. now rewrite powm_spec by lia.
Qed.

Section Proofs.
  Variable is_prime : Z -> bool.
  Variable H : bytes -> Z.
  Hypothesis is_prime_correct : forall n, 0 <= n -> (is_prime n = true <-> prime n).

  Definition wf_core (F G p q k : Z) : Prop :=
    F <= sizeinbase2 p /\ G <= sizeinbase2 q /\ p = q * k + 1 /\ prime (Z.abs p) /\ prime (Z.abs q) /\ Z.gcd q k = 1.

  Definition canon_ok (fuel : nat) (canonical : bool) (p q k g : Z) : Prop :=
    canonical = true -> canon_loop H fuel (ustr0 p q) p q k = Found g.

  (* all integers: the order test is kept in the form the code evaluates it (it differs from g^q = 1 only for q < 0) *)
  Definition wf_vtmf (fuel : nat) (F G : Z) (canonical : bool) (p q g k : Z) : Prop :=
    wf_core F G p q k /\ 1 < g < p - 1 /\ mpz_powm g q p = Some 1 /\ canon_ok fuel canonical p q k g.

  (* the textbook statement (q > 0) *)
  Definition wf_group (fuel : nat) (F G : Z) (canonical : bool) (p q g k : Z) : Prop :=
    F <= sizeinbase2 p /\ G <= sizeinbase2 q /\ p = q * k + 1 /\ prime p /\ prime q /\ ~ (q | k) /\
    1 < g < p - 1 /\ g ^ q mod p = 1 /\ canon_ok fuel canonical p q k g.

  (* what later proofs take from the well-formedness predicates *)
  Lemma wf_core_primes F G p q k : wf_core F G p q k -> prime (Z.abs p) /\ prime (Z.abs q).
  Proof. unfold wf_core. tauto. Qed.

  Lemma wf_group_cyclic fuel F G canonical p q g k : wf_group fuel F G canonical p q g k ->
    prime p /\ prime q /\ 1 < g < p - 1 /\ g ^ q mod p = 1.
  Proof. unfold wf_group. tauto. Qed.

  Lemma check_core_iff F G p q k : check_core is_prime F G p q k = true <-> wf_core F G p q k.
  Proof.
    unfold check_core, wf_core, probab_prime.
    rewrite !andb_true_iff, negb_true_iff, orb_false_iff, !Z.ltb_ge, !Z.eqb_eq, (Z.eq_sym_iff _ p).
    rewrite !is_prime_correct by apply Z.abs_nonneg. tauto.
  Qed.

  Lemma canon_ok_iff fuel (canonical : bool) p q k g :
    (if canonical then canon_check H fuel p q k g else Accept) = Accept <-> canon_ok fuel canonical p q k g.
  Proof.
    unfold canon_ok, canon_check. destruct canonical; [|intuition discriminate].
    destruct (canon_loop H fuel (ustr0 p q) p q k) as [g2| |]; [destruct (Z.eqb_spec g g2)|..];
      intuition (discriminate || congruence).
  Qed.

  Theorem check_group_vtmf_iff fuel F G canonical p q g k :
    check_group_vtmf is_prime H fuel F G canonical p q g k = Accept <-> wf_vtmf fuel F G canonical p q g k.
  Proof.
    unfold check_group_vtmf, wf_vtmf.
    now rewrite !reject_unless, order_test_neg, canon_ok_iff, check_core_iff, in_range_iff.
  Qed.

  Lemma gcd_prime_ndiv q k : prime q -> (Z.gcd q k = 1 <-> ~ (q | k)).
  Proof.
    intros Pq. pose proof (prime_ge_2 q Pq). split.
    - intros G D. apply Z.divide_gcd_iff in D; lia.
    - intros ND. apply Zgcd_1_rel_prime. now apply prime_rel_prime.
  Qed.

  Lemma wf_vtmf_pos fuel F G canonical p q g k : 0 < q ->
    (wf_vtmf fuel F G canonical p q g k <-> wf_group fuel F G canonical p q g k).
  Proof.
    intros Hq. unfold wf_vtmf, wf_core, wf_group. split.
    - intros ((HF & HG & Hf & Pp & Pq & Hg) & R & O & C).
      assert (0 < p) by lia. rewrite Z.abs_eq in Pp, Pq by lia.
      rewrite mpz_powm_pos in O by lia. injection O as O.
      rewrite gcd_prime_ndiv in Hg by assumption. tauto.
    - intros (HF & HG & Hf & Pp & Pq & Hg & R & O & C).
      assert (0 < p) by lia. rewrite !Z.abs_eq, mpz_powm_pos, O by lia.
      rewrite <- gcd_prime_ndiv in Hg by assumption. tauto.
  Qed.

  Theorem check_group_vtmf_textbook fuel F G canonical p q g k : 0 < q ->
    (check_group_vtmf is_prime H fuel F G canonical p q g k = Accept <-> wf_group fuel F G canonical p q g k).
  Proof. intros Hq. rewrite check_group_vtmf_iff. now apply wf_vtmf_pos. Qed.

  (* with a positive modulus and exponents q, k >= 0 the check never dies: GMP's division by zero is out of reach *)
  Lemma canon_loop_no_crash p q k : 0 < p -> 0 <= q -> 0 <= k ->
    forall fuel U, canon_loop H fuel U p q k <> CCrash.
  Proof.
    intros Hp Hq Hk. induction fuel as [|f IH]; intros U; cbn [canon_loop]; [discriminate|].
    rewrite mpz_powm_pos by lia. rewrite mpz_powm_pos by lia.
    destruct ((H U ^ k mod p =? 0) || (H U ^ k mod p =? 1) || (H U ^ k mod p =? p - 1)
              || negb ((H U ^ k mod p) ^ q mod p =? 1)); [apply IH|discriminate].
  Qed.

  Theorem check_group_vtmf_no_crash fuel F G canonical p q g k : 0 < q -> 0 < k ->
    check_group_vtmf is_prime H fuel F G canonical p q g k <> Crash.
  Proof.
    intros Hq Hk. unfold check_group_vtmf.
    destruct (check_core is_prime F G p q k) eqn:Ec; cbn [negb]; [|discriminate].
    apply check_core_iff in Ec. destruct Ec as (_ & _ & Ec & _).
    destruct (in_range g p); cbn [negb]; [|discriminate].
    rewrite mpz_powm_pos by nia. destruct (g ^ q mod p =? 1); cbn [negb]; [|discriminate].
    destruct canonical; [|discriminate]. unfold canon_check.
    pose proof (canon_loop_no_crash p q k ltac:(nia) ltac:(lia) ltac:(lia) fuel (ustr0 p q)) as NC.
    destruct (canon_loop H fuel (ustr0 p q) p q k) as [g2| |]; [destruct (g =? g2); discriminate|contradiction|discriminate].
  Qed.

  Theorem gen_order_exact fuel F G canonical p q g k : wf_group fuel F G canonical p q g k ->
    forall e, 0 <= e -> (g ^ e mod p = 1 <-> (q | e)).
  Proof.
    intros W e He. destruct (wf_group_cyclic _ _ _ _ _ _ _ _ W) as (Pp & Pq & R & O). pose proof (prime_ge_2 q Pq).
    pose proof (pow_inj_mod_q p q g ltac:(lia) Pq ltac:(now rewrite powm_spec by lia) ltac:(rewrite Z.mod_small; lia)
                  e 0 He ltac:(lia)) as I.
    rewrite Z.pow_0_r, Z.mod_1_l, Z.mod_0_l in I by lia. rewrite I. apply Z.mod_divide. lia.
  Qed.

  Corollary gen_no_smaller_order fuel F G canonical p q g k : wf_group fuel F G canonical p q g k ->
    forall d, 0 < d < q -> g ^ d mod p <> 1.
  Proof.
    intros W d Hd E. apply (gen_order_exact _ _ _ _ _ _ _ _ W) in E; [|lia].
    apply Z.divide_pos_le in E; lia.
  Qed.

  Theorem check_element_iff_raw p q a :
    check_element p q a = Accept <-> 0 < a < p /\ mpz_powm a q p = Some 1.
  Proof.
    unfold check_element. rewrite reject_if, order_test, orb_false_iff, !Z.leb_gt. intuition.
  Qed.

  Theorem check_element_iff p q a : 0 <= q ->
    (check_element p q a = Accept <-> 0 < a < p /\ a ^ q mod p = 1).
  Proof.
    intros Hq. rewrite check_element_iff_raw. split.
    - intros [R E]. rewrite mpz_powm_pos in E by lia. inversion E as [E']. rewrite E'. auto.
    - intros [R E]. rewrite mpz_powm_pos by lia. rewrite E. auto.
  Qed.

  Theorem check_element_total p q a : 0 <= q -> check_element p q a = Accept \/ check_element p q a = Reject.
  Proof.
    intros Hq. unfold check_element. destruct ((a <=? 0) || (p <=? a)) eqn:E; [now right|].
    rewrite mpz_powm_pos by lia. destruct (a ^ q mod p =? 1); auto.
  Qed.

  (* every power of an element with g^q = 1 is accepted *)
  Lemma check_element_power p q g x : 1 < p -> 0 < q -> powm g q p = 1 -> 0 <= x ->
    check_element p q (powm g x p) = Accept.
  Proof.
    intros Hp Hq O Hx. apply check_element_iff; [lia|]. split; [now apply (powm_nonzero p q)|].
    rewrite <- powm_spec, <- powm_mul by lia. now apply powm_order_mult.
  Qed.

  Theorem subgroup_accepted fuel F G canonical p q g k : wf_group fuel F G canonical p q g k ->
    forall x, 0 <= x -> check_element p q (powm g x p) = Accept.
  Proof.
    intros W x Hx. destruct (wf_group_cyclic _ _ _ _ _ _ _ _ W) as (Pp & Pq & R & O). pose proof (prime_ge_2 q Pq).
    apply check_element_power; try lia. now rewrite powm_spec by lia.
  Qed.

  (* members are closed under multiplication (the accepted set is a subgroup) *)
  Theorem element_mul_closed p q a b : prime p -> 0 <= q ->
    check_element p q a = Accept -> check_element p q b = Accept -> check_element p q (a * b mod p) = Accept.
  Proof.
    intros Pp Hq Ea Eb. apply check_element_iff in Ea; [|assumption]. apply check_element_iff in Eb; [|assumption].
    destruct Ea as [Ra Ea], Eb as [Rb Eb]. assert (Hp : 1 < p) by lia.
    apply check_element_iff; [assumption|].
    pose proof (Z.mod_pos_bound (a * b) p ltac:(lia)) as Rm.
    assert (E : (a * b mod p) ^ q mod p = 1).
    { rewrite pow_mod_base by lia. rewrite Z.pow_mul_l. rewrite Zmult_mod, Ea, Eb. apply Z.mod_1_l. lia. }
    split; [|exact E].
    destruct (Z.eq_dec (a * b mod p) 0) as [Z0|NZ]; [|lia].
    apply Zmod_divide in Z0; [|lia]. apply prime_mult in Z0; [|assumption].
    destruct Z0 as [D|D]; apply Z.divide_pos_le in D; lia.
  Qed.

  Lemma orders_ok_iff xs q p : orders_ok xs q p = Accept <-> Forall (fun x => mpz_powm x q p = Some 1) xs.
  Proof.
    induction xs as [|x r IH]; cbn [orders_ok]; [intuition constructor|].
    now rewrite order_test, IH, Forall_cons_iff.
  Qed.

  Lemma others_ok_iff h p gs :
    others_ok h p gs = true <-> Forall (fun x => 1 < x < p - 1) gs /\ ~ In h gs /\ NoDup gs.
  Proof.
    induction gs as [|x r IH]; cbn [others_ok]; [intuition constructor|].
    assert (Nx : forallb (fun y => negb (x =? y)) r = true <-> ~ In x r).
    { rewrite forallb_forall. split.
      - intros Fa I. specialize (Fa x I). now rewrite Z.eqb_refl in Fa.
      - intros N y I. apply negb_true_iff, Z.eqb_neq. now intros ->. }
    rewrite !andb_true_iff, IH, Nx, in_range_iff, negb_true_iff, Z.eqb_neq, Forall_cons_iff, NoDup_cons_iff, not_in_cons.
    intuition congruence.
  Qed.

  Definition wf_gens (fuel : nat) (F G : Z) (sign_test derive_k canonical : bool) (p q k0 h : Z) (gs : list Z) : Prop :=
    let k := if derive_k then (p - 1) / q else k0 in
    (sign_test || derive_k = true -> 0 < q) /\ wf_core F G p q k /\
    Forall (fun x => mpz_powm x q p = Some 1) (h :: gs) /\
    Forall (fun x => 1 < x < p - 1) (h :: gs) /\ NoDup (h :: gs) /\
    canon_ok fuel canonical p q k (hd 0 gs).

  Theorem check_group_gens_iff fuel F G sign_test derive_k canonical p q k0 h gs :
    check_group_gens is_prime H fuel F G sign_test derive_k canonical p q k0 h gs = Accept
    <-> wf_gens fuel F G sign_test derive_k canonical p q k0 h gs.
  Proof.
    unfold check_group_gens, wf_gens. cbv zeta. set (k := if derive_k then (p - 1) / q else k0).
    assert (Q : (sign_test || derive_k) && (q <=? 0) = false <-> (sign_test || derive_k = true -> 0 < q))
      by (destruct (sign_test || derive_k); cbn [andb]; intuition (lia || discriminate)).
    rewrite reject_if, reject_unless, accept_then, reject_unless, canon_ok_iff.
    rewrite Q, check_core_iff, orders_ok_iff, andb_true_iff, in_range_iff, others_ok_iff.
    rewrite (Forall_cons_iff (fun x => 1 < x < p - 1)), NoDup_cons_iff, !and_assoc. reflexivity.
  Qed.

  (* with the sign test the order test is the textbook one and the check cannot die *)
  Theorem check_group_gens_order fuel F G sign_test derive_k canonical p q k0 h gs :
    sign_test || derive_k = true ->
    check_group_gens is_prime H fuel F G sign_test derive_k canonical p q k0 h gs = Accept ->
    0 < q /\ prime p /\ prime q /\ Forall (fun x => x ^ q mod p = 1) (h :: gs).
  Proof.
    intros St E. apply check_group_gens_iff in E. destruct E as (Q & Co & Fo & Fr & _).
    destruct (wf_core_primes _ _ _ _ _ Co) as [Pp Pq].
    specialize (Q St). apply Forall_inv in Fr. assert (0 < p) by lia.
    rewrite Z.abs_eq in Pp, Pq by lia. split; [|split; [|split]]; trivial.
    rewrite Forall_forall in *. intros x Ix. specialize (Fo x Ix). rewrite mpz_powm_pos in Fo by lia. congruence.
  Qed.

  Theorem check_group_gens_no_crash fuel F G sign_test derive_k p q k0 h gs :
    sign_test || derive_k = true ->
    check_group_gens is_prime H fuel F G sign_test derive_k false p q k0 h gs <> Crash.
  Proof.
    intros St. unfold check_group_gens. rewrite St. cbn [andb].
    destruct (Z.leb_spec q 0); [discriminate|].
    set (k := if derive_k then (p - 1) / q else k0).
    destruct (check_core is_prime F G p q k) eqn:Ec; cbn [negb]; [|discriminate].
    apply check_core_iff, wf_core_primes in Ec. destruct Ec as [Pp _].
    assert (Np : p <> 0) by (intros ->; cbn in Pp; destruct Pp; lia).
    assert (O : forall xs, orders_ok xs q p <> Crash).
    { induction xs as [|x r IH]; cbn [orders_ok]; [discriminate|].
      unfold mpz_powm. destruct (Z.eqb_spec p 0); [contradiction|]. destruct (Z.leb_spec 0 q); [|lia].
      destruct (_ =? 1); [exact IH|discriminate]. }
    specialize (O (h :: gs)). destruct (orders_ok (h :: gs) q p); try discriminate; try contradiction.
    destruct (negb _); discriminate.
  Qed.

  Section QR.
  Variable jac : Z -> Z -> Z.

  Definition wf_qr (F G E : Z) (canonical : bool) (p q g : Z) : Prop :=
    F <= sizeinbase2 p /\ G <= sizeinbase2 q /\ p = 2 * q + 1 /\ prime p /\ prime q /\ p mod 8 = 7 /\
    1 < g < p - 1 /\ jac g p = 1 /\
    (canonical = true -> E <= sizeinbase2 p /\ g = 2 ^ (2 ^ (sizeinbase2 p - E)) mod p).

  (* the generator of the stream constructor, recomputed and compared *)
  Lemma qr_canon_iff E (canonical : bool) p g : 0 < p ->
    (if canonical then
       if sizeinbase2 p <? E then Reject
       else match mpz_powm 2 (2 ^ (sizeinbase2 p - E)) p with
            | None => Crash
            | Some g2 => if g2 =? g then Accept else Reject
            end
     else Accept) = Accept
    <-> (canonical = true -> E <= sizeinbase2 p /\ g = 2 ^ (2 ^ (sizeinbase2 p - E)) mod p).
  Proof.
    intros Hp. destruct canonical; [|intuition discriminate].
    rewrite reject_if, Z.ltb_ge, mpz_powm_pos by (try apply Z.pow_nonneg; lia).
    destruct (Z.eqb_spec (2 ^ 2 ^ (sizeinbase2 p - E) mod p) g); intuition (discriminate || congruence).
  Qed.

  Theorem check_group_qr_iff F G E canonical p q g :
    check_group_qr is_prime jac F G E canonical p q g = Accept <-> wf_qr F G E canonical p q g.
  Proof.
    unfold check_group_qr, wf_qr, probab_prime.
    rewrite reject_if, !reject_unless, orb_false_iff, !Z.ltb_ge, andb_true_iff, !Z.eqb_eq, in_range_iff.
    rewrite !is_prime_correct by apply Z.abs_nonneg. split.
    - intros ((HF & HG) & Ef & (Pp & Pq) & E8 & R & J & L). assert (0 < p /\ 0 < q) by lia. symmetry in Ef.
      rewrite Z.abs_eq in Pp, Pq by lia. rewrite qr_canon_iff in L by lia. tauto.
    - intros (HF & HG & Ef & Pp & Pq & E8 & R & J & L). assert (0 < p /\ 0 < q) by lia. symmetry in Ef.
      rewrite !Z.abs_eq, qr_canon_iff by lia. tauto.
  Qed.

  (* with Euler's criterion for the Jacobi symbol modulo an odd prime, the accepted generator has g^q = 1 *)
  Theorem qr_generator_order F G E canonical p q g :
    (forall a m, prime m -> 2 < m -> 0 < a < m -> (jac a m = 1 <-> a ^ ((m - 1) / 2) mod m = 1)) ->
    wf_qr F G E canonical p q g -> g ^ q mod p = 1.
  Proof.
    intros Euler (HF & HG & Hf & Pp & Pq & H8 & R & J & C).
    apply Euler in J; [|assumption|lia|lia].
    replace ((p - 1) / 2) with q in J; [assumption|].
    subst p. replace (2 * q + 1 - 1) with (q * 2) by lia. now rewrite Z.div_mul by lia.
  Qed.

  Theorem check_element_qr_iff p a : check_element_qr jac p a = true <-> 0 < a < p /\ jac a p = 1.
  Proof. unfold check_element_qr. lia. Qed.

  End QR.

  (* the exhaustive listing used by the correspondence is the filter of check_element *)
  Lemma accepted_from_spec p q : forall n lo a,
    In a (accepted_from p q lo n) <-> lo <= a < lo + Z.of_nat n /\ check_element p q a = Accept.
  Proof.
    induction n as [|n IH]; intros lo a; cbn [accepted_from].
    - split; [intros []|lia].
    - rewrite Nat2Z.inj_succ. destruct (Z.eq_dec lo a) as [<-|N].
      + destruct (check_element p q lo) eqn:E; cbn [In]; rewrite ?IH; intuition (lia || discriminate).
      + transitivity (In a (accepted_from p q (lo + 1) n)); [|rewrite IH; intuition lia].
        destruct (check_element p q lo); cbn [In]; intuition congruence.
  Qed.
End Proofs.

Lemma no_divisor_from_spec n : forall fuel d, 0 < d -> no_divisor_from n d fuel = true ->
  forall e, d <= e < d + Z.of_nat fuel -> e * e <= n -> ~ (e | n).
Proof.
  induction fuel as [|f IH]; intros d Hd T e He Hee D; [lia|]. cbn [no_divisor_from] in T.
  destruct (Z.ltb_spec n (d * d)); [nia|]. destruct (Z.eqb_spec (n mod d) 0) as [|N]; [discriminate|].
  destruct (Z.eq_dec e d) as [->|]; [apply N, Zdivide_mod, D|]. apply (IH (d + 1) ltac:(lia) T e); [lia|assumption..].
Qed.

Lemma no_divisor_from_prime n : prime n -> forall fuel d, 1 < d -> no_divisor_from n d fuel = true.
Proof.
  intros Pn. induction fuel as [|f IH]; intros d Hd; cbn [no_divisor_from]; [reflexivity|].
  destruct (Z.ltb_spec n (d * d)); [reflexivity|]. destruct (Z.eqb_spec (n mod d) 0) as [E|_]; [|apply IH; lia].
  apply Zmod_divide, (prime_divisors n Pn) in E; nia.
Qed.

(* a composite n = m * k has a divisor e = min m k with e * e <= n, which the loop from 2 to sqrt n meets *)
Theorem trial_prime_iff n : trial_prime n = true <-> prime n.
Proof.
  unfold trial_prime. rewrite andb_true_iff, Z.leb_le. split.
  - intros [H2 T]. apply prime_alt. split; [lia|]. intros m Hm [k Hk].
    assert (S : forall e, 2 <= e -> e * e <= n -> ~ (e | n)).
    { intros e He Hee. apply (no_divisor_from_spec n _ 2 ltac:(lia) T); [|assumption].
      apply Z.sqrt_le_square in Hee; lia. }
    destruct (Z.le_gt_cases m k); [apply (S m)|apply (S k)]; try nia; [exists k|exists m]; lia.
  - intros Pn. pose proof (prime_ge_2 n Pn). split; [assumption|]. apply no_divisor_from_prime; [assumption|lia].
Qed.
