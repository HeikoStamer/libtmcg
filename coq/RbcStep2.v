(* RbcStep2: local facts about the out-of-order handler (l-retrieve / l-deliver) and the origin of stored payloads,
   used to extend agreement and integrity to slots fetched through that handler (C14). *)
From Coq Require Import ZArith List Bool Lia.
From LT Require Import RbcModel RbcLemmas RbcStep.
Import ListNotations.
Local Open Scope Z_scope.

Section Step2.
Variables (n t : Z) (H : Z -> Z) (toolong : tagT -> Z -> bool).
Notation handle := (handle n t H toolong).

(* the out-of-order handler accepted x for tg: n - t distinct parties answered l-deliver with x *)
Definition laccept (st : pst) (tg : tagT) (x : Z) : Prop :=
  exists L, NoDup L /\ n - t <= Z.of_nat (length L) /\
    forall k, In k L -> filt st FDeliver k tg = true /\ rbuf st tg k = x.

Lemma agree_find_laccept : forall me st tg i, agree_find n t me st tg = Some i -> laccept st tg (rbuf st tg i).
Proof.
  intros me st tg i F. unfold agree_find in F. apply find_some in F. destruct F as [Ir C]. b2p.
  unfold agree_num in *.
  set (f := fun k : Z => (i <? k) && filt st FDeliver k tg && negb (k =? me) && (rbuf st tg k =? rbuf st tg i)) in *.
  exists (i :: filter f (range n)). split; [|split].
  - constructor; [|apply NoDup_filter; apply range_nodup].
    intros I. apply filter_In in I. destruct I as [_ C]. unfold f in C. b2p. lia.
  - cbn [length]. lia.
  - intros k [<-|I]; [auto|]. apply filter_In in I. destruct I as [_ C]. unfold f in C. b2p. auto.
Qed.

(* validated tags, second form: the agreed digest matches the stored payload, or the handler accepted the stored payload *)
Definition svalid (st : pst) (tg : tagT) : Prop :=
  (exists d, dbar st tg = Some d /\ match mbar st tg with Some v => H v = d \/ d = 0 | None => d = 0 end) \/
  (exists x, mbar st tg = Some x /\ laccept st tg x).

Variable skip : Z.
Notation deliver := (deliver n t skip H toolong).

Set Implicit Arguments.
Record pstep2 (st st' : pst) (out : list (Z * msg)) (r : dres) (offer : option (Z * msg)) : Prop := {
  (* where a stored payload comes from *)
  p2_mbar : forall tg, mbar st' tg = mbar st tg \/
     exists x, mbar st' tg = Some x /\
       ((mbar st tg = None /\ exists id j s, tg = (id, j, s) /\ forall i, In i (range n) -> In (i, Msg id j s 2 (H x)) out) \/
        dbar st' tg = Some (H x) \/ laccept st' tg x);
  (* an l-deliver answer carries the payload the party has stored *)
  p2_answer : forall dst x, In (dst, x) out -> m_act x = 7 -> mbar st (mtag x) = Some (m_pay x);
  (* the l-deliver filter and the retrieve buffer move together *)
  p2_fdeliver : forall k tg, filt st' FDeliver k tg = true ->
     (filt st FDeliver k tg = true /\ rbuf st' tg k = rbuf st tg k) \/
     exists m, offer = Some (k, m) /\ mtag m = tg /\ m_act m = 7 /\ rbuf st' tg k = m_pay m;
  p2_delivered : forall who tg v, r = RDeliver who tg v -> mbar st' tg = Some v /\ (svalid st' tg \/ In tg (dbuf st));
  p2_dbuf : forall tg, In tg (dbuf st') -> In tg (dbuf st) \/ svalid st' tg }.
Unset Implicit Arguments.

Lemma pstep2_fbuf : forall st st' out r off x, pstep2 st st' out r off -> pstep2 st (set_fbuf st' x) out r off.
Proof. intros st st' out r off x []. constructor; assumption. Qed.

Lemma pstep2_same : forall st st' out,
  mbar st' = mbar st -> filt st' = filt st -> rbuf st' = rbuf st -> dbuf st' = dbuf st ->
  (forall dst x, In (dst, x) out -> m_act x <> 7) -> forall off, pstep2 st st' out RNone off.
Proof.
  intros st st' out E1 E2 E3 E4 A off. constructor; rewrite ?E1, ?E2, ?E3, ?E4; auto.
  - intros dst x I A7. apply A in I. contradiction.
  - discriminate.
Qed.

Lemma handle_pstep2 : forall me st l m st' out r, handle me st l m = (st', out, r) -> pstep2 st st' out r (Some (l, m)).
Proof.
  intros me st l m st' out r HH. apply handle_inv in HH. constructor.
  - intros tg. destruct HH; proj; auto.
    + (* HSend *) destruct (fixes_cases _ _ _ _ _ Mb tg) as [E|(-> & E0 & E1)]; auto. right. exists (m_pay m). split; auto.
      left. split; auto. exists (m_id m), (m_j m), (m_s m). split; auto. intros i I. apply in_map_iff. exists i. auto.
    + (* HAnswerDeliver *) destruct (updT_cases _ (mbar st) (mtag m) (Some (m_pay m)) tg) as [->|(-> & ->)]; auto; right; exists (m_pay m); auto.
    + (* HAnswerBuffer *) destruct (updT_cases _ (mbar st) (mtag m) (Some (m_pay m)) tg) as [->|(-> & ->)]; auto; right; exists (m_pay m); auto.
    + (* HAgreeDeliver *) destruct (updT_cases _ (mbar st) (mtag m) (Some x) tg) as [->|(-> & ->)]; auto. right. exists x. split; auto.
      right; right. subst x. apply agree_find_laccept in Ag. exact Ag.
    + (* HAgreeBuffer *) destruct (updT_cases _ (mbar st) (mtag m) (Some x) tg) as [->|(-> & ->)]; auto. right. exists x. split; auto.
      right; right. subst x. apply agree_find_laccept in Ag. exact Ag.
  - intros dst xm I A7. destruct HH; in_out I; subst; try discriminate A7. exact Mb.
  - intros k' tg F. destruct HH; proj; auto;
    apply fset_inv in F; destruct F as [F|(K & -> & ->)]; auto; try discriminate K; try (subst k; contradiction).
    all: try (right; exists m; rewrite upd2_same; auto).
    all: left; split; auto; destruct (upd2_cases (rbuf st) (mtag m) l (m_pay m) tg k') as [->|(-> & -> & _)]; congruence.
  - intros who tg w Er. destruct HH; try discriminate Er; inversion Er; subst; proj; rewrite ?updT_same; (split; [auto|]);
    left; unfold svalid; proj; rewrite ?updT_same.
    + (* HReadyDeliver *) left. exists (m_pay m). split; [apply Db|]. rewrite Mb in *. auto.
    + (* HAnswerDeliver *) left. exists (H (m_pay m)). auto.
    + (* HAgreeDeliver *) right. eexists. split; [reflexivity|]. apply agree_find_laccept in Ag. exact Ag.
  - intros tg I. destruct HH; proj; auto; apply in_app_or in I; destruct I as [I|[<-|[]]]; auto;
    right; unfold svalid; proj; rewrite ?updT_same.
    + (* HReadyBuffer *) left. exists (m_pay m). split; [apply Db|]. rewrite <- Hm. destruct (mbar st (mtag m)); auto.
    + (* HAnswerBuffer *) left. exists (H (m_pay m)). auto.
    + (* HAgreeBuffer *) right. exists x. split; [reflexivity|]. subst x. apply agree_find_laccept in Ag. exact Ag.
Qed.

Lemma pstep2_buffer : forall me st st1 sent1 st2 out r off, buffer_phase n skip me st = (st1, sent1) ->
  pstep2 st1 st2 out r off -> pstep2 st st2 (sent1 ++ out) r off.
Proof.
  intros me st st1 sent1 st2 out r off BP [X1 X2 X3 X4 X5].
  apply buffer_phase_spec in BP. destruct BP as ((_ & Mb & Db & _ & _ & Rb & Fm & Fi) & _ & A6 & BD).
  assert (Sub : forall tg, In tg (dbuf st1) -> In tg (dbuf st)).
  { rewrite BD. apply incl_filter. }
  rewrite Mb, Rb in *. constructor; rewrite ?Mb, ?Rb.
  - intros tg. destruct (X1 tg) as [E|(x & E & [(N & id & j & s & T & A)|[D|L]])]; auto; right; exists x; split; auto.
    left. split; auto. exists id, j, s. split; auto. intros i I. apply in_or_app. auto.
  - intros dst x I A7. apply (act6_or_later _ _ _ _ A6) in I. destruct I as [E|I]; [lia|eauto].
  - intros k tg Fk. destruct (X3 k tg Fk) as [[F0 R0]|C]; auto.
    left. split; auto. destruct (Fi _ _ _ F0) as [?|?]; [auto|discriminate].
  - intros who tg v E. apply X4 in E. destruct E as (E & [V|V]); auto.
  - intros tg I. apply X5 in I. destruct I as [I|V]; auto.
Qed.

Lemma deliver_pstep2 : forall me st offer,
  let o := deliver me st offer in pstep2 st (o_st o) (o_sent o) (o_res o) offer.
Proof.
  intros me st offer. destruct (deliver_inv n t skip H toolong me st offer); cbv zeta; cbn [o_st o_sent o_res].
  - constructor; auto; try discriminate. intros ? ? [].
  - constructor; proj; auto.
    + intros ? ? [].
    + intros who0 tg w E. inversion E; subst. split; [exact M|]. right. rewrite B. apply in_elt.
    + intros tg I. left. rewrite B. apply in_app_or in I. apply in_or_app. destruct I; [left|right; right]; auto.
  - rewrite <- (app_nil_r sent1). eapply pstep2_buffer; eauto. apply pstep2_same; auto.
  - eapply pstep2_buffer; eauto. eapply handle_pstep2; exact HH.
Qed.

End Step2.
