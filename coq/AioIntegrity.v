(* AioIntegrity: proofs about AioModel -- with authentication, what is delivered from ANY byte stream is a
   prefix of what the honest sender sent, unless the stream contains a MAC forgery. *)
From Coq Require Import ZArith NArith List Bool Lia.
From LT Require Import gen_Consts CodecModel CodecLemmas AioModel AioLemmas AioRoundtrip.
Import ListNotations.
Local Open Scope Z_scope.

(* cutting at the first newline (split_at) gives the two parts back *)
Lemma app_nl_inj a b x y : Forall (fun c => c <> c_nl) a -> Forall (fun c => c <> c_nl) b ->
  a ++ c_nl :: x = b ++ c_nl :: y -> a = b /\ x = y.
Proof.
  intros Fa Fb H. pose proof (split_at_app c_nl a x Fa) as S. rewrite H, split_at_app in S by exact Fb.
  now injection S as <- <-.
Qed.

(* a delivery under authentication means the tag on the wire is the MAC of line, newline, sequence number *)
Lemma accept_needs_tag P c nonce k line tag m k' : auth c = true ->
  process_record P c nonce k line tag = (Deliver m, k') ->
  tag = mac P (line ++ c_nl :: encode62 (k_sqn k)).
Proof.
  intros A H. unfold process_record in H. rewrite A in H.
  destruct (bytes_eqb _ tag) eqn:M.
  - symmetry. now apply bytes_eqb_eq.
  - destruct (k_sqn k =? 1); discriminate.
Qed.

Section Integrity.
Variable P : prims.
Variable c : cfg.
Variable iv : bytes.

Hypothesis mac_len : forall x, length (mac P x) = maclen P.
Hypothesis dec_enc : forall h p, isbytes p -> c_dec P h (c_enc P h p) = p.
Hypothesis enc_len : forall h p, length (c_enc P h p) = length p.
Hypothesis enc_byte : forall h p, isbytes p -> isbytes (c_enc P h p).
Hypothesis authenticated : auth c = true.

Definition nonl (s : bytes) : Prop := Forall (fun x => x <> c_nl) s.

(* the (line, tag) records of an honest session *)
Fixpoint trace (st : sstate) (ms : list Z) (recs : list (bytes * bytes)) : Prop :=
  match ms, recs with
  | [], [] => True
  | m :: r, (line, tag) :: rr =>
    exists w st', send P c iv st m = Some (w, st') /\
      w = (if encr c && negb (s_iv_sent st) then iv else []) ++ line ++ c_nl :: tag /\ nonl line /\ trace st' r rr
  | _, _ => False
  end.

(* the MAC inputs of these records: line, newline, sequence number *)
Fixpoint inputs (q : Z) (recs : list (bytes * bytes)) : list bytes :=
  match recs with [] => [] | (l, _) :: r => (l ++ c_nl :: encode62 q) :: inputs (q + 1) r end.

(* no forgery in the byte string s: every (line, tag) occurring in it whose tag is the MAC of line || newline || q
   for a sequence number q >= q0 was computed by the honest sender *)
Definition no_forgery (q0 : Z) (recs : list (bytes * bytes)) (s : bytes) : Prop :=
  forall a line tag b q, s = a ++ line ++ c_nl :: tag ++ b -> nonl line -> q0 <= q ->
    mac P (line ++ c_nl :: encode62 q) = tag -> In (line ++ c_nl :: encode62 q) (inputs q0 recs).

Lemma no_forgery_suffix q0 recs pre s : no_forgery q0 recs (pre ++ s) -> no_forgery q0 recs s.
Proof.
  intros H a line tag b q E. apply (H (pre ++ a) line tag b q). rewrite E. now rewrite <- app_assoc.
Qed.

Lemma trace_nonl st ms recs : trace st ms recs -> Forall (fun r => nonl (fst r)) recs.
Proof.
  revert st recs. induction ms as [|m r IH]; intros st [|[l t] rr] H; cbn in H; try contradiction; [constructor|].
  destruct H as (w & st' & _ & _ & N & T). constructor; [exact N|]. eapply IH. exact T.
Qed.

(* the sequence numbers in the MAC inputs only go up *)
Lemma inputs_sqn l q q0 rs : nonl l -> Forall (fun r => nonl (fst r)) rs ->
  In (l ++ c_nl :: encode62 q) (inputs q0 rs) -> q0 <= q.
Proof.
  intros Fl. revert q0. induction rs as [|[l' t] rs IH]; intros q0 F X; [destruct X|].
  inversion F as [|? ? N1 F1]; subst. cbn [inputs In] in X. destruct X as [X|X].
  - destruct (app_nl_inj _ _ _ _ N1 Fl X) as [_ X2]. apply encode62_inj in X2. lia.
  - specialize (IH (q0 + 1) F1 X). lia.
Qed.

(* a step of the trace is an accepted Send, and its (line, tag) is the record send_record speaks of *)
Lemma trace_step st m r l t rr : 0 <= s_chunk st -> trace st (m :: r) ((l, t) :: rr) ->
  exists w st', send P c iv st m = Some (w, st') /\ trace st' r rr /\ nonl l /\ length t = eff_maclen P c /\
    w = (if encr c && negb (s_iv_sent st) then iv else []) ++ l ++ c_nl :: t /\
    (auth c = true -> t = mac P (l ++ c_nl :: encode62 (s_sqn st))) /\
    s_sqn st' = (if auth c then s_sqn st + 1 else s_sqn st) /\ 0 <= s_chunk st' /\
    forall k, sync st k -> exists k', process_record P c iv k l t = (Deliver m, k') /\ sync st' k'.
Proof.
  intros Hch (w & st' & S1 & Hw & Nl & T1).
  destruct (send_record P c iv mac_len dec_enc enc_len enc_byte st m w st' Hch S1)
    as (line & tag & Hw' & Fl & Lt & Htag & Hsq & _ & Hc1 & Hp).
  rewrite Hw in Hw'. apply app_inv_head in Hw'. destruct (app_nl_inj _ _ _ _ Nl Fl Hw') as [<- <-].
  exists w, st'. repeat (split; [assumption|]). exact Hp.
Qed.

(* a record whose MAC verifies is an honest MAC input (no_forgery) and so, by its sequence number, the next record of the
   trace: it is delivered and both sides advance; one whose MAC fails is dropped (sequence number 1) or stalls the link *)
Theorem integrity_records fuel : forall s k st ms recs,
  0 <= s_chunk st -> trace st ms recs ->
  sync st k -> no_forgery (s_sqn st) recs s ->
  exists n, stream_records P c iv fuel k s = firstn n ms.
Proof.
  induction fuel as [|f IH]; intros s k st ms recs Hch T Sy NF; [exists O; reflexivity|].
  cbn [stream_records].
  destruct (first_record (eff_maclen P c) s) as [[[line tag] rest]|] eqn:FR; [|exists O; reflexivity].
  destruct (first_record_decomp _ _ _ _ _ FR) as (Es & Fl & Lt).
  assert (NFr : no_forgery (s_sqn st) recs rest).
  { apply (no_forgery_suffix _ _ (line ++ c_nl :: tag)). rewrite <- app_assoc. cbn [app]. rewrite <- Es. exact NF. }
  destruct Sy as [Ks Kh].
  unfold process_record. rewrite authenticated.
  destruct (bytes_eqb (mac P (line ++ c_nl :: encode62 (k_sqn k))) tag) eqn:M.
  - apply bytes_eqb_eq in M.
    assert (I : In (line ++ c_nl :: encode62 (k_sqn k)) (inputs (s_sqn st) recs)).
    { apply (NF [] line tag rest (k_sqn k)); [exact Es|exact Fl|lia|exact M]. }
    destruct ms as [|m r]; destruct recs as [|[l0 t0] rr]; try contradiction.
    destruct (trace_step _ _ _ _ _ _ Hch T) as (w & st1 & _ & T1 & Nl0 & _ & _ & Htag & Hsq & Hc1 & Hp).
    rewrite authenticated in Hsq.
    cbn [inputs In] in I. destruct I as [I|I].
    + destruct (app_nl_inj _ _ _ _ Nl0 Fl I) as [-> _].
      assert (Et : tag = t0). { rewrite <- M, (Htag authenticated), Ks. reflexivity. }
      subst t0.
      destruct (Hp k (conj Ks Kh)) as (k' & PR & Sy').
      unfold process_record in PR. rewrite authenticated, <- M, bytes_eqb_refl in PR.
      rewrite PR.
      destruct (IH rest k' st1 r rr Hc1 T1) as [n Hn].
      * exact Sy'.
      * rewrite Hsq. intros a line2 tag2 b q E2 N2 Hq Hm.
        specialize (NFr a line2 tag2 b q E2 N2 ltac:(lia) Hm). cbn [inputs In] in NFr.
        destruct NFr as [X|X]; [|exact X].
        destruct (app_nl_inj _ _ _ _ Fl N2 X) as [_ X2]. apply encode62_inj in X2. lia.
      * exists (S n). cbn [firstn]. now rewrite Hn.
    + pose proof (inputs_sqn _ _ _ _ Fl (trace_nonl _ _ _ T1) I). lia.
  - destruct (Z.eqb_spec (k_sqn k) 1); [|exists O; reflexivity].
    apply (IH rest _ st ms recs Hch T); [split; cbn; assumption|exact NFr].
Qed.

End Integrity.
