(* SkcLemmas: acceptance characterisations and range / membership rules for the Pedersen verifier and the
   non-interactive shuffle-of-known-content verifier. *)
From Coq Require Import ZArith List Bool Lia.
From LT Require Import Zbase gen_Consts VtmfVerModel VtmfVerLemmas SkcModel.
Import ListNotations.
Local Open Scope Z_scope.

Lemma test_membership_spec K c : test_membership K c = true <-> 0 < c < kp K /\ powm c (kq K) (kp K) = 1.
Proof.
  unfold test_membership. rewrite !andb_true_iff, !Z.ltb_lt, Z.eqb_eq. tauto.
Qed.

Lemma in_zq_spec q x : in_zq q x = true <-> 0 <= x < q.
Proof. unfold in_zq. rewrite andb_true_iff, Z.leb_le, Z.ltb_lt. tauto. Qed.

Lemma forallb_in_zq q l : forallb (in_zq q) l = true <-> Forall (fun x => 0 <= x < q) l.
Proof.
  rewrite forallb_forall, Forall_forall. split; intros H x Hx; apply in_zq_spec; now apply H.
Qed.

Theorem ped_accept_iff K c r ms :
  ped_verify K c r ms = Accept <-> 0 <= r < kq K /\ 0 < c < kp K /\ recommit K r ms = Some c.
Proof.
  unfold ped_verify. apply accept_unless; [now rewrite orb_false_iff, Z.ltb_ge, Z.leb_gt|].
  destruct (recommit K r ms) as [c2|]; [|split; [discriminate|intros (_ & [=])]].
  apply accept_unless; [now rewrite orb_false_iff, !Z.leb_gt|].
  rewrite accept_test, Z.eqb_eq. split; [intros <-; reflexivity|intros [= <-]; reflexivity].
Qed.

(* range rules of an opening as coded: 0 <= r < q (negative values are refused), 0 < c < p *)
Corollary ped_range_rules K c r ms : ped_verify K c r ms = Accept -> 0 <= r < kq K /\ 0 < c < kp K.
Proof. intros A. apply ped_accept_iff in A. tauto. Qed.

(* the messages are not range-checked (known findings pedersen.m.plusq / pedersen.m.negfar): for a generator of order
   dividing q the message m + q opens the same commitment as long as it still fits the power table.  0 < TMCG_MAX_FPOWM_N
   holds of the generated constant; as a hypothesis it keeps the statement independent of the value *)
Theorem ped_message_plus_q K c r g m : 0 < kp K -> 0 < kq K -> 0 <= m -> kg K = [g] -> powm g (kq K) (kp K) = 1 ->
  bits (m + kq K) <= ktl K -> 0 < TMCG_MAX_FPOWM_N ->
  ped_verify K c r [m + kq K] = ped_verify K c r [m].
Proof.
  intros Hp Hq Hm Hg Ho Hb HN.
  assert (1 < kp K).
  { destruct (Z.eq_dec (kp K) 1) as [E|]; [|lia]. rewrite E, powm_spec, Z.mod_1_r in Ho by lia. discriminate. }
  unfold ped_verify, recommit. rewrite Hg. cbn [commit_loop]. unfold gen_pow.
  destruct (Z.ltb_spec 0 TMCG_MAX_FPOWM_N); [|lia].
  pose proof (bits_mono m (m + kq K)). unfold ktl in *. rewrite !(fpowm_fits _ g) by lia.
  now rewrite powm_add, Ho, Z.mul_1_r, (Z.mod_small (powm g m _)) by (try apply powm_range; lia).
Qed.

Theorem skc_accept_iff H K le c ms P :
  skc_verify H K le c ms P = Accept <->
  length (s_f P) = length ms /\ S (length (s_fD P)) = length ms /\
  test_membership K (s_cd P) = true /\ test_membership K (s_ca P) = true /\ test_membership K (s_cD P) = true /\
  0 <= s_z P < kq K /\ Forall (fun x => 0 <= x < kq K) (s_f P) /\
  0 <= s_zD P < kq K /\ Forall (fun x => 0 <= x < kq K) (s_fD P) /\
  let x := skc_x H K le ms in
  let e := skc_e H K le ms x P in
  exists ce cae einv,
    mpz_powm c e (kp K) = Some ce /\ ped_verify K ((ce * s_cd P) mod kp K) (s_z P) (s_f P) = Accept /\
    mpz_powm (s_ca P) e (kp K) = Some cae /\ ped_verify K ((cae * s_cD P) mod kp K) (s_zD P) (s_fD P ++ [0]) = Accept /\
    invm e (kq K) = Some einv /\
    (prod_rhs (kq K) x ms 1 * e) mod kq K = prod_lhs (kq K) ((e * x) mod kq K) einv (s_f P) (s_fD P) true 1.
Proof.
  unfold skc_verify. cbv zeta. rewrite !refuse_and.
  do 2 (apply accept_if; [apply Nat.eqb_eq|]). do 3 (apply accept_if; [reflexivity|]).
  do 2 (apply accept_if; [apply in_zq_spec|]; apply accept_if; [apply forallb_in_zq|]).
  split.
  - destruct (mpz_powm c _ (kp K)) as [ce|]; [|discriminate].
    destruct (ped_verify K _ (s_z P) (s_f P)) eqn:V1; try discriminate.
    destruct (mpz_powm (s_ca P) _ (kp K)) as [cae|]; [|discriminate].
    destruct (ped_verify K _ (s_zD P) _) eqn:V2; try discriminate.
    destruct (invm _ (kq K)) as [einv|]; [|discriminate].
    rewrite accept_test, Z.eqb_eq. intros E. exists ce, cae, einv. auto 7.
  - intros (ce & cae & einv & -> & -> & -> & -> & -> & ->). now rewrite Z.eqb_refl.
Qed.

(* range and membership rules exactly as coded (negative values are refused, not reduced) *)
Corollary skc_range_rules H K le c ms P : skc_verify H K le c ms P = Accept ->
  0 <= s_z P < kq K /\ Forall (fun x => 0 <= x < kq K) (s_f P) /\
  0 <= s_zD P < kq K /\ Forall (fun x => 0 <= x < kq K) (s_fD P).
Proof. intros A. apply skc_accept_iff in A. tauto. Qed.

Corollary skc_member_rules H K le c ms P : skc_verify H K le c ms P = Accept ->
  (0 < s_cd P < kp K /\ powm (s_cd P) (kq K) (kp K) = 1) /\
  (0 < s_ca P < kp K /\ powm (s_ca P) (kq K) (kp K) = 1) /\
  (0 < s_cD P < kp K /\ powm (s_cD P) (kq K) (kp K) = 1).
Proof.
  intros A. apply skc_accept_iff in A. destruct A as (_ & _ & A & B & C & _). now rewrite <- !test_membership_spec.
Qed.

(* a response of the same residue but outside [0,q) is refused *)
Corollary skc_z_shifted_rejected H K le c ms P k : 0 < kq K -> k <> 0 -> 0 <= s_z P < kq K ->
  skc_verify H K le c ms (mk_skc (s_cd P) (s_cD P) (s_ca P) (s_f P) (s_z P + k * kq K) (s_fD P) (s_zD P)) <> Accept.
Proof.
  intros Hq Hk Hz A. apply skc_range_rules in A. cbn [s_z] in A. destruct A as (A & _). nia.
Qed.

(* z is tested right after the parser's lengths and the three memberships, which can only refuse as well: no
   exponentiation decides this case *)
Lemma skc_z_out_of_range H K le c ms P : in_zq (kq K) (s_z P) = false -> skc_verify H K le c ms P = Reject.
Proof.
  intros Z. unfold skc_verify. cbv zeta. rewrite Z.
  (* the two tests in front of it, in the order of skc_verify *)
  destruct (negb _); [reflexivity|]. destruct (negb _); reflexivity.
Qed.

(* an opening binds the randomizer: unconditional (no hash involved) *)
Lemma commit_loop_factor K : 1 < kp K -> forall ms gs idx acc v, commit_loop K idx gs ms acc = Some v -> 0 <= acc < kp K ->
  exists G, forall acc', 0 <= acc' < kp K -> commit_loop K idx gs ms acc' = Some ((acc' * G) mod kp K).
Proof.
  intros Hp. induction ms as [|m ms IH]; intros gs idx acc v E Ha.
  - exists 1. intros acc' Ha'. rewrite Z.mul_1_r. rewrite Z.mod_small by exact Ha'. destruct gs; reflexivity.
  - destruct gs as [|gi gs]; [discriminate|]. cbn [commit_loop] in *. destruct (gen_pow K idx gi m) as [t|]; [|discriminate].
    destruct (IH gs (idx + 1) ((acc * t) mod kp K) v E ltac:(apply Z.mod_pos_bound; lia)) as [G' HG].
    exists ((t * G') mod kp K). intros acc' Ha'.
    rewrite (HG ((acc' * t) mod kp K)) by (apply Z.mod_pos_bound; lia). f_equal.
    rewrite Zmult_mod_idemp_l, Zmult_mod_idemp_r. f_equal. ring.
Qed.

Theorem ped_randomizer_bound K c r r' ms :
  Znumtheory.prime (kp K) -> Znumtheory.prime (kq K) -> powm (kh K) (kq K) (kp K) = 1 -> kh K mod kp K <> 1 ->
  bits (kq K) <= TMCG_MAX_FPOWM_T ->
  ped_verify K c r ms = Accept -> ped_verify K c r' ms = Accept -> r = r'.
Proof.
  intros Pp Pq Hh Hh1 Hb A B. assert (Hp : 1 < kp K) by (destruct Pp; lia).
  apply ped_accept_iff in A, B. destruct A as (Rr & Rc & A). destruct B as (Rr' & _ & B).
  pose proof (bits_mono r (kq K)). pose proof (bits_mono r' (kq K)).
  unfold recommit, ktl in A, B. rewrite fpowm_fits in A, B by lia.
  assert (R0 : 0 <= powm (kh K) r (kp K) < kp K) by (apply powm_range; lia).
  assert (R0' : 0 <= powm (kh K) r' (kp K) < kp K) by (apply powm_range; lia).
  destruct (commit_loop_factor K Hp ms (kg K) 0 _ _ A R0) as [G HG].
  rewrite (HG _ R0) in A. rewrite (HG _ R0') in B. injection A as A. injection B as B.
  (* c <> 0, so the factor G the messages contribute is a unit and cancels *)
  assert (NZ : G mod kp K <> 0).
  { intros Z0. rewrite <- Zmult_mod_idemp_r, Z0, Z.mul_0_r, Z.mod_0_l in A by lia. lia. }
  destruct (invm_prime G (kp K) Pp NZ) as [Gi HGi]. apply invm_inverse in HGi as [_ HGi]; [|assumption].
  rewrite <- (Z.mod_small r (kq K)), <- (Z.mod_small r' (kq K)) by lia.
  apply (recommit_inj (kp K) (kq K) (kh K) Hp Pq Hh Hh1 r r' G Gi); [lia|lia|assumption|congruence].
Qed.

(* hence the response z of the shuffle of known content is bound as an exact value (not only modulo q) *)
Corollary skc_z_bound H K le c ms P z' :
  Znumtheory.prime (kp K) -> Znumtheory.prime (kq K) -> powm (kh K) (kq K) (kp K) = 1 -> kh K mod kp K <> 1 ->
  bits (kq K) <= TMCG_MAX_FPOWM_T ->
  skc_verify H K le c ms P = Accept ->
  skc_verify H K le c ms (mk_skc (s_cd P) (s_cD P) (s_ca P) (s_f P) z' (s_fD P) (s_zD P)) = Accept -> z' = s_z P.
Proof.
  intros Pp Pq Hh Hh1 Hb A B. apply skc_accept_iff in A, B. cbv zeta in A, B. cbn [s_cd s_cD s_ca s_f s_z s_fD s_zD] in B.
  destruct A as (_ & _ & _ & _ & _ & _ & _ & _ & _ & ce & cae & einv & E1 & V1 & _).
  destruct B as (_ & _ & _ & _ & _ & _ & _ & _ & _ & ce' & cae' & einv' & E1' & V1' & _).
  unfold skc_e in *. cbn [s_cd s_cD s_ca] in *. rewrite E1 in E1'. injection E1' as <-.
  symmetry. eapply ped_randomizer_bound; eassumption.
Qed.
