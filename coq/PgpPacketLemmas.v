(* C19 -- packet level round trips: decoding (as implemented) what the RFC field encoders produce *)
From Coq Require Import ZArith NArith List Bool Lia ZifyBool ZifyN.
From LT Require Import ListFacts PgpCodecModel PgpCodecLemmas PgpSigModel PgpPacketModel.
Import ListNotations.
Local Open Scope N_scope.

Definition mpi_ok (n : N) : Prop := N.size n < 65536.

(* a number of more than 8 k bits takes more than k octets after the two of the bit count *)
Lemma mpi_encode_len_ge k n : 2 ^ (8 * N.of_nat k) <= n -> (k + 3 <= length (mpi_encode n))%nat.
Proof.
  intro H. rewrite mpi_encode_length. unfold mpi_octets.
  assert (8 * N.of_nat k < N.size n)
    by (apply (N.pow_lt_mono_r_iff 2); [lia|]; eapply N.le_lt_trans; [exact H|apply N.size_gt]).
  assert (N.of_nat k + 1 <= (N.size n + 7) / 8) by (apply N.div_le_lower_bound; lia). lia.
Qed.

(* the MPIs ms followed by rest; for a concrete row this computes to mpi_encode a ++ mpi_encode b ++ ... ++ rest *)
Definition mpis_then (ms : list N) (rest : list N) : list N := fold_right (fun m r => mpi_encode m ++ r) rest ms.

Lemma mpis_concat ms rest : concat (map mpi_encode ms) ++ rest = mpis_then ms rest.
Proof. induction ms as [|m ms IH]; [reflexivity|]. cbn [map concat]. now rewrite <- app_assoc, IH. Qed.

Lemma mpis_decode_enc ms rest : Forall mpi_ok ms -> mpis_decode (length ms) (mpis_then ms rest) = Some (ms, rest).
Proof.
  induction 1 as [|m ms Hm _ IH]; [reflexivity|]. cbn [length mpis_decode mpis_then fold_right].
  rewrite mpi_roundtrip by exact Hm. fold (mpis_then ms rest). now rewrite skipn_app_exact, IH.
Qed.

Lemma mpis_decode_strict_enc ms rest : Forall mpi_ok ms -> Forall (fun m => m <> 0) ms ->
  mpis_decode_strict (length ms) (mpis_then ms rest) = Some (ms, rest).
Proof.
  induction 1 as [|m ms Hm _ IH]; intro Hz; [reflexivity|]. inversion_clear Hz as [|? ? Hn Hzs].
  cbn [length mpis_decode_strict mpis_then fold_right]. fold (mpis_then ms rest).
  pose proof (mpi_encode_len_ge 0 m).
  replace (length (mpi_encode m ++ mpis_then ms rest) <=? 2)%nat with false by (rewrite app_length; lia).
  rewrite mpi_roundtrip by exact Hm. now rewrite skipn_app_exact, IH.
Qed.

(* [decoded_row dec lem ms r]: the goal decodes the concrete row mpi_encode a ++ mpi_encode b ++ ... ++ r, which converts
   to mpis_then ms r without matching it, so the result is put in its place by [replace] and proved by [apply lem] *)
Ltac decoded_row dec lem ms r :=
  replace (dec _ _) with (Some (ms, r)) by (symmetry; apply (lem ms); repeat constructor; (assumption || lia)).

Theorem roundtrip_uid : forall nf u, decode_body 13 nf u = PdOk (PfUid u).
Proof. reflexivity. Qed.

Theorem roundtrip_sed : forall nf d, d <> [] -> decode_body 9 nf d = PdOk (PfSed d).
Proof. intros nf [|x d] H; [congruence|reflexivity]. Qed.

Theorem roundtrip_seipd : forall nf d, d <> [] -> decode_body 18 nf (seipd_body d) = PdOk (PfSeipd d).
Proof. intros nf [|x d] H; [congruence|reflexivity]. Qed.

Theorem roundtrip_mdc : forall h, length h = 20%nat -> decode_body 19 true h = PdOk (PfMdc h).
Proof. intros h H. unfold decode_body. cbn [N.eqb Pos.eqb orb negb]. now rewrite H. Qed.

Theorem roundtrip_comp : forall nf a d, d <> [] -> decode_body 8 nf (comp_body a d) = PdOk (PfComp a d).
Proof. intros nf a [|x d] H; [congruence|reflexivity]. Qed.

Theorem roundtrip_lit : forall nf fm fn tm d, tm < 4294967296 -> d <> [] ->
  decode_body 11 nf (lit_body fm fn tm d) = PdOk (PfLit fm fn tm d).
Proof.
  intros nf fm fn tm d Ht Hd. unfold decode_body. cbn [N.eqb Pos.eqb orb]. unfold decode_lit, lit_body, len.
  rewrite Nat2N.id, !app_length. change (length (be4 tm)) with 4%nat.
  replace (length fn + (4 + length d) <? length fn + 4)%nat with false by lia.
  rewrite (firstn_app_exact (length fn)), (skipn_app_exact (length fn)) by reflexivity.
  rewrite (firstn_app_exact 4), be_value_be4 by easy.
  rewrite app_assoc, skipn_app_exact by (rewrite app_length; reflexivity).
  destruct d; [congruence|reflexivity].
Qed.

(* a literal packet without data is what the encoder emits for an empty document, and the decoder refuses it *)
Theorem roundtrip_lit_empty_refuted : forall nf fm fn tm, decode_body 11 nf (lit_body fm fn tm []) = PdError.
Proof.
  intros. unfold decode_body. cbn [N.eqb Pos.eqb orb]. unfold decode_lit, lit_body, len. rewrite Nat2N.id, app_nil_r.
  destruct (_ <? _)%nat; [reflexivity|]. now rewrite skipn_all2 by (rewrite app_length; reflexivity).
Qed.

Theorem roundtrip_aead : forall nf sk ae cs iv d, length iv = aead_ivlen_n ae -> d <> [] ->
  decode_body 20 nf (aead_body sk ae cs iv d) = PdOk (PfAead sk ae cs iv d).
Proof.
  intros nf sk ae cs iv d Hiv Hd. unfold decode_body. cbn [N.eqb Pos.eqb orb]. unfold decode_aead, aead_body.
  cbn [N.eqb Pos.eqb negb]. rewrite <- Hiv, app_length.
  destruct d as [|x d]; [congruence|]. cbn [length].
  replace (length iv + S (length d) <=? length iv)%nat with false by lia.
  now rewrite firstn_app_exact, skipn_app_exact.
Qed.

Definition s2k_ok (s : s2k_spec) : Prop :=
  match s with S2kSimple _ => True | S2kSalted _ salt => length salt = 8%nat | S2kIterated _ salt _ => length salt = 8%nat end.

(* the salt and the count octet of an iterated specifier, read back from the front of what follows the hash octet *)
Lemma salt_count_split salt c r : length salt = 8%nat ->
  firstn 8 ((salt ++ [c]) ++ r) = salt /\ nth 8 ((salt ++ [c]) ++ r) 0 = c /\ skipn 9 ((salt ++ [c]) ++ r) = r.
Proof.
  intro H. rewrite <- app_assoc. split; [now apply firstn_app_exact|]. split.
  - now rewrite app_nth2, H by lia.
  - rewrite app_assoc. apply skipn_app_exact. rewrite app_length, H. reflexivity.
Qed.

Theorem roundtrip_skesk4 : forall nf sk s e, s2k_ok s -> decode_body 3 nf (skesk4_body sk s e) = PdOk (PfSkesk4 sk s e).
Proof.
  intros nf sk s e Hs. unfold decode_body. cbn [N.eqb Pos.eqb orb]. unfold decode_skesk, skesk4_body.
  destruct s as [h|h salt|h salt c]; cbn [s2k_octets app N.eqb Pos.eqb s2k_ok] in *.
  - reflexivity.
  - rewrite app_length, Hs. replace (8 + length e <? 8)%nat with false by lia.
    now rewrite firstn_app_exact, skipn_app_exact.
  - destruct (salt_count_split salt c e Hs) as (-> & -> & ->).
    now replace (length _ <? 9)%nat with false by (rewrite !app_length, Hs; cbn [length]; lia).
Qed.

Theorem roundtrip_skesk5 : forall nf sk ae s iv e, s2k_ok s -> length iv = aead_ivlen_n ae -> e <> [] ->
  decode_body 3 nf (skesk5_body sk ae s iv e) = PdOk (PfSkesk5 sk ae s iv e).
Proof.
  intros nf sk ae s iv e Hs Hiv He. unfold decode_body. cbn [N.eqb Pos.eqb orb]. unfold decode_skesk, skesk5_body.
  assert (Hl : (1 <= length e)%nat) by (destruct e; [congruence|cbn; lia]).
  destruct s as [h|h salt|h salt c]; cbn [s2k_octets app N.eqb Pos.eqb s2k_ok] in *; rewrite <- Hiv.
  - rewrite app_length. replace (length iv + length e <? length iv)%nat with false by lia.
    replace (length iv + length e =? length iv)%nat with false by lia.
    now rewrite firstn_app_exact, skipn_app_exact.
  - rewrite !app_length, Hs. replace (8 + (length iv + length e) <? 8 + length iv)%nat with false by lia.
    replace (8 + (length iv + length e) =? 8 + length iv)%nat with false by lia.
    rewrite (firstn_app_exact 8), (skipn_app_exact 8), firstn_app_exact by easy.
    now rewrite app_assoc, skipn_app_exact by (rewrite app_length, Hs; reflexivity).
  - destruct (salt_count_split salt c (iv ++ e) Hs) as (-> & -> & E9).
    replace (length _ <? 9 + length iv)%nat with false by (rewrite !app_length, Hs; cbn [length]; lia).
    replace (length _ =? 9 + length iv)%nat with false by (rewrite !app_length, Hs; cbn [length]; lia).
    rewrite E9, firstn_app_exact by reflexivity.
    rewrite !app_assoc, skipn_app_exact by (rewrite !app_length, Hs; reflexivity). reflexivity.
Qed.

(* the curve OID has a one-octet length; oid_split refuses the reserved values 0 and 255 *)
Definition oid_ok (oid : list N) : Prop := (1 <= length oid <= 254)%nat.
Definition km_wf (km : key_material) : Prop :=
  match km with
  | KmRSA n e => mpi_ok n /\ mpi_ok e
  | KmElg p g y => mpi_ok p /\ mpi_ok g /\ mpi_ok y
  | KmDSA p q g y => mpi_ok p /\ mpi_ok q /\ mpi_ok g /\ mpi_ok y
  | KmECsig oid pk => oid_ok oid /\ mpi_ok pk
  | KmECDH oid pk _ _ => oid_ok oid /\ mpi_ok pk
  end.

Lemma oid_split_enc oid r : oid_ok oid -> oid_split (len oid :: oid ++ r) = Some (oid, r).
Proof.
  unfold oid_ok, oid_split. intro H. rewrite len_app, to_nat_len.
  replace (len oid =? 0) with false by (unfold len; lia). replace (len oid =? 255) with false by (unfold len; lia).
  cbn [orb]. replace (len oid + len r <? len oid) with false by lia.
  now rewrite firstn_app_exact, skipn_app_exact.
Qed.

Lemma km_octets_len km : km_wf km -> (4 <= length (km_octets km))%nat.
Proof.
  destruct km; cbn [km_octets km_wf length]; unfold oid_ok; intro H;
    rewrite ?app_length; cbn [length]; rewrite ?app_length, ?mpi_encode_length; lia.
Qed.

(* decode_key on a body whose key material starts after [pre]: nothing for version 4, the four-octet count for version 5 *)
Lemma decode_key_material tag v t1 t2 t3 t4 algo pre km :
  (v = 4 /\ pre = []) \/ (v = 5 /\ length pre = 4%nat) -> km_matches algo km = true -> km_wf km ->
  decode_key tag (v :: t1 :: t2 :: t3 :: t4 :: algo :: pre ++ km_octets km) =
  PdOk (PfKey tag v (be_value [t1; t2; t3; t4]) algo km).
Proof.
  intros Hv Hm Hw. pose proof (km_octets_len km Hw) as Hl. unfold decode_key.
  replace (length _ <? 10)%nat with false by (cbn [length]; rewrite app_length; lia).
  replace (negb ((v =? 4) || (v =? 5))) with false by (destruct Hv as [[-> _]|[-> _]]; reflexivity).
  set (m := if v =? 4 then _ else _).
  assert (Em : m = km_octets km ++ []).
  { rewrite app_nil_r. destruct Hv as [[-> ->]|[-> Hp]]; [reflexivity|now apply skipn_app_exact]. }
  rewrite Em. clear Hl Hv m Em.
  destruct km as [n e|p g y|p q g y|oid pk|oid pk h s]; cbn [km_matches km_octets km_wf] in *;
    rewrite <- ?app_comm_cons, <- ?app_assoc.
  - rewrite Hm. destruct Hw. decoded_row mpis_decode mpis_decode_enc [n; e] (@nil N). reflexivity.
  - apply N.eqb_eq in Hm as ->. destruct Hw as (? & ? & ?). cbn [N.eqb Pos.eqb orb].
    decoded_row mpis_decode mpis_decode_enc [p; g; y] (@nil N). reflexivity.
  - apply N.eqb_eq in Hm as ->. destruct Hw as (? & ? & ? & ?). cbn [N.eqb Pos.eqb orb].
    decoded_row mpis_decode mpis_decode_enc [p; q; g; y] (@nil N). reflexivity.
  - destruct Hw as [Ho Hp].
    apply orb_prop in Hm as [Hm|Hm]; apply N.eqb_eq in Hm as ->; cbn [N.eqb Pos.eqb orb];
      rewrite oid_split_enc by assumption; decoded_row mpis_decode mpis_decode_enc [pk] (@nil N); reflexivity.
  - apply N.eqb_eq in Hm as ->. destruct Hw as [Ho Hp]. cbn [N.eqb Pos.eqb orb].
    rewrite oid_split_enc by assumption. decoded_row mpis_decode mpis_decode_enc [pk] ([3; 1; h; s]). reflexivity.
Qed.

Theorem roundtrip_key : forall tag nf v tm a km, (tag = 6 \/ tag = 14) -> (v = 4 \/ v = 5) -> tm < 4294967296 ->
  km_matches a km = true -> km_wf km ->
  decode_body tag nf (fields_body (PfKey tag v tm a km)) = PdOk (PfKey tag v tm a km).
Proof.
  intros tag nf v tm a km Ht Hv Htm Hm Hw.
  replace (decode_body tag nf _) with (decode_key tag (fields_body (PfKey tag v tm a km)))
    by (destruct Ht as [-> | ->]; reflexivity).
  destruct (be4_digits tm Htm) as (t1 & t2 & t3 & t4 & E & V). rewrite <- V at 2. rewrite <- be_value4.
  destruct Hv as [-> | ->]; cbn [fields_body N.eqb Pos.eqb]; unfold key_body_v4, key_body_v5; rewrite E.
  - apply (decode_key_material tag 4 t1 t2 t3 t4 a []); auto.
  - cbn [app]. apply decode_key_material; auto.
Qed.

(* ECDH: the decoder wants more than two octets after the ephemeral key (length octet and wrapped key), and again
   refuses the length octets 0 and 255 *)
Definition esk_wf (e : esk_material) : Prop :=
  match e with
  | EskRSA me => mpi_ok me /\ 16777216 <= me                     (* the decoder wants a body of at least 16 octets *)
  | EskElg gk myk => mpi_ok gk /\ mpi_ok myk /\ gk <> 0 /\ myk <> 0
  | EskECDH epk w => mpi_ok epk /\ epk <> 0 /\ (2 <= length w <= 254)%nat
  end.

Theorem roundtrip_pkesk : forall nf keyid a e, length keyid = 8%nat -> esk_matches a e = true -> esk_wf e ->
  decode_body 1 nf (pkesk_body keyid a e) = PdOk (PfPkesk keyid a e).
Proof.
  intros nf keyid a e Hk Hm Hw. unfold decode_body. cbn [N.eqb Pos.eqb]. unfold decode_pkesk, pkesk_body.
  assert (Hl : (6 <= length (esk_octets e))%nat).
  { destruct e as [me|gk myk|epk w]; cbn [esk_octets esk_wf] in *.
    - now apply (mpi_encode_len_ge 3).
    - destruct Hw as (_ & _ & Hg & Hy). rewrite app_length. pose proof (mpi_encode_len_ge 0 gk). pose proof (mpi_encode_len_ge 0 myk). lia.
    - destruct Hw as (_ & Hg & ?). rewrite app_length. cbn [length]. pose proof (mpi_encode_len_ge 0 epk). lia. }
  replace (length _ <? 16)%nat with false by (cbn [length]; rewrite app_length; cbn [length]; lia).
  cbn [N.eqb Pos.eqb negb]. rewrite (firstn_app_exact 8), (skipn_app_exact 8) by assumption.
  destruct e as [me|gk myk|epk w]; cbn [esk_matches esk_octets esk_wf] in *.
  - rewrite Hm. destruct Hw as [Ho Hb]. rewrite <- (app_nil_r (mpi_encode me)).
    decoded_row mpis_decode_strict mpis_decode_strict_enc [me] (@nil N). reflexivity.
  - apply N.eqb_eq in Hm as ->. cbn [N.eqb Pos.eqb orb]. destruct Hw as (? & ? & ? & ?).
    rewrite <- (app_nil_r (mpi_encode myk)).
    decoded_row mpis_decode_strict mpis_decode_strict_enc [gk; myk] (@nil N). reflexivity.
  - apply N.eqb_eq in Hm as ->. cbn [N.eqb Pos.eqb orb]. destruct Hw as (? & ? & Hwl).
    decoded_row mpis_decode_strict mpis_decode_strict_enc [epk] (len w :: w).
    cbn [length]. replace (S (length w) <=? 2)%nat with false by lia.
    unfold len. replace (N.of_nat (length w) =? 0) with false by lia. replace (N.of_nat (length w) =? 255) with false by lia.
    cbn [orb]. now rewrite N.ltb_irrefl, Nat2N.id, firstn_all.
Qed.

(* a two-octet length field as the decoders read it *)
Lemma be2_len (x : list N) : len x < 65536 -> exists a b, be2 (len x) = [a; b] /\ N.to_nat (a * 256 + b) = length x.
Proof. intro H. destruct (be2_digits _ H) as (a & b & E & _ & _ & V). exists a, b. rewrite V. split; [exact E|apply Nat2N.id]. Qed.

(* the MPIs that end a signature packet *)
Lemma sig_mpis_decode pk ms : sig_mpi_count pk = Some (length ms) -> Forall mpi_ok ms -> Forall (fun m => m <> 0) ms ->
  (3 <= length (concat (map mpi_encode ms)))%nat /\
  mpis_decode_strict (length ms) (concat (map mpi_encode ms)) = Some (ms, []).
Proof.
  intros Hc Hok Hnz. split.
  - destruct ms as [|m ms].
    + unfold sig_mpi_count in Hc. destruct (_ || _); [discriminate|]. destruct (_ || _); discriminate.
    + inversion_clear Hnz as [|? ? Hm _]. cbn [map concat]. rewrite app_length. pose proof (mpi_encode_len_ge 0 m). lia.
  - rewrite <- (app_nil_r (concat _)), mpis_concat. now apply mpis_decode_strict_enc.
Qed.

Theorem roundtrip_sig4 : forall nf v ty pk h hashed unhashed left ms, (v = 4 \/ v = 5) ->
  len hashed < 65536 -> len unhashed < 65536 -> area_ok hashed = true -> area_ok unhashed = true ->
  length left = 2%nat -> sig_mpi_count pk = Some (length ms) -> Forall mpi_ok ms -> Forall (fun m => m <> 0) ms ->
  decode_body 2 nf (sig4_body v ty pk h hashed unhashed left ms) = PdOk (PfSig4 v ty pk h hashed unhashed left ms).
Proof.
  intros nf v ty pk h hashed unhashed left ms Hv Hh Hu Ah Au Hl Hc Hok Hnz.
  destruct (sig_mpis_decode pk ms Hc Hok Hnz) as [Hml Hd].
  destruct left as [|l1 [|l2 [|? ?]]]; try discriminate.
  unfold decode_body. cbn [N.eqb Pos.eqb]. unfold decode_sig, sig4_body.
  replace (v =? 3) with false by (destruct Hv; subst; reflexivity).
  replace ((v =? 4) || (v =? 5)) with true by (destruct Hv; subst; reflexivity).
  replace (length _ <? 12)%nat with false by (cbn [length]; rewrite !app_length, !be2_bytes, !be_bytes_length; cbn [length]; lia).
  destruct (be2_len hashed Hh) as (a & b & -> & Eh). destruct (be2_len unhashed Hu) as (c & d & -> & Eu).
  cbn [app]. rewrite Eh, app_length. replace (length hashed + _ <? length hashed)%nat with false by lia.
  rewrite firstn_app_exact, skipn_app_exact, Ah by reflexivity. cbn [negb app].
  rewrite Eu, app_length. replace (length unhashed + _ <? length unhashed)%nat with false by lia.
  rewrite firstn_app_exact, skipn_app_exact, Au by reflexivity. cbn [negb app]. now rewrite Hc, Hd.
Qed.

Theorem roundtrip_sig3 : forall nf ty tm issuer pk h left ms, tm < 4294967296 -> length issuer = 8%nat ->
  length left = 2%nat -> sig_mpi_count pk = Some (length ms) -> Forall mpi_ok ms -> Forall (fun m => m <> 0) ms ->
  decode_body 2 nf (sig3_body ty tm issuer pk h left ms) = PdOk (PfSig3 ty tm issuer pk h left ms).
Proof.
  intros nf ty tm issuer pk h left ms Htm Hi Hl Hc Hok Hnz.
  destruct (sig_mpis_decode pk ms Hc Hok Hnz) as [Hml Hd].
  destruct left as [|l1 [|l2 [|? ?]]]; try discriminate.
  unfold decode_body. cbn [N.eqb Pos.eqb]. unfold decode_sig, sig3_body. cbn [N.eqb Pos.eqb].
  destruct (be4_digits tm Htm) as (t1 & t2 & t3 & t4 & -> & V). cbn [app].
  replace (length _ <? 22)%nat with false by (cbn [length]; rewrite !app_length; cbn [length]; lia).
  cbn [N.eqb Pos.eqb negb]. rewrite (firstn_app_exact 8), (skipn_app_exact 8) by assumption. cbn [app].
  now rewrite Hc, Hd, be_value4, V.
Qed.

Lemma subpkt_split_five b c d e t r :
  subpkt_split (255 :: b :: c :: d :: e :: t :: r) =
  let n := u32 (b * 16777216 + c * 65536 + d * 256 + e) in
  if n =? 0 then None else if len r <? n - 1 then None
  else Some (t mod 128, firstn (N.to_nat (n - 1)) r, skipn (N.to_nat (n - 1)) r).
Proof. reflexivity. Qed.

(* the subpacket codec: what SubpacketEncode writes is split back into type and body *)
Theorem subpacket_roundtrip : forall t crit d rest, t < 128 -> len d + 1 < 4294967296 ->
  subpkt_split (subpacket t crit d ++ rest) = Some (t, d, rest).
Proof.
  intros t crit d rest Ht Hl. unfold subpacket.
  set (tb := if crit then N.lor t 128 else t).
  assert (Htb : tb mod 128 = t).
  { unfold tb. destruct crit; [|now apply N.mod_small].
    pose proof (forall_below 128 (fun t => (N.lor t 128) mod 128 =? t) eq_refl t Ht) as F. cbv beta in F. lia. }
  (* what follows the length header, once the header has given back len d + 1 *)
  assert (T1 : (len d + 1 =? 0) = false) by lia.
  assert (T2 : N.to_nat (len d + 1 - 1) = length d) by (rewrite N.add_sub; apply to_nat_len).
  assert (T3 : (len (d ++ rest) <? len d + 1 - 1) = false) by (rewrite len_app; lia).
  destruct (pktlen_encode_cases _ Hl) as [[H1 E]|[[H1 (a & b & E & Ha & Hb & V)]|[H1 (b & c & e & f & E & V)]]];
    rewrite E; cbn [app].
  - cbn [subpkt_split]. replace (len d + 1 <? 192) with true by lia.
    now rewrite T1, T3, T2, Htb, firstn_app_exact, skipn_app_exact.
  - cbn [subpkt_split]. replace (a <? 192) with false by lia. replace (a <? 255) with true by lia.
    now rewrite V, T1, T3, T2, Htb, firstn_app_exact, skipn_app_exact.
  - rewrite subpkt_split_five. unfold u32. cbv zeta.
    now rewrite V, N.mod_small, T1, T3, T2, Htb, firstn_app_exact, skipn_app_exact.
Qed.

Definition wf_fields (f : packet_fields) : Prop :=
  len (fields_body f) < 4294967296 /\
  match f with
  | PfPkesk k a e => length k = 8%nat /\ esk_matches a e = true /\ esk_wf e
  | PfSig4 v ty pk h hs us l ms =>
      (v = 4 \/ v = 5) /\ len hs < 65536 /\ len us < 65536 /\ area_ok hs = true /\ area_ok us = true /\ length l = 2%nat /\
      sig_mpi_count pk = Some (length ms) /\ Forall mpi_ok ms /\ Forall (fun m => m <> 0) ms
  | PfSig3 ty tm i pk h l ms =>
      tm < 4294967296 /\ length i = 8%nat /\ length l = 2%nat /\ sig_mpi_count pk = Some (length ms) /\
      Forall mpi_ok ms /\ Forall (fun m => m <> 0) ms
  | PfSkesk4 _ s _ => s2k_ok s
  | PfSkesk5 _ ae s iv e => s2k_ok s /\ length iv = aead_ivlen_n ae /\ e <> []
  | PfKey tag v tm a km => (tag = 6 \/ tag = 14) /\ (v = 4 \/ v = 5) /\ tm < 4294967296 /\ km_matches a km = true /\ km_wf km
  | PfComp _ d => d <> []
  | PfSed d => d <> []
  | PfLit _ _ tm d => tm < 4294967296 /\ d <> []
  | PfUid _ => True
  | PfSeipd d => d <> []
  | PfMdc h => length h = 20%nat
  | PfAead _ ae _ iv d => length iv = aead_ivlen_n ae /\ d <> []
  end.

Lemma fields_tag_small f : wf_fields f -> fields_tag f < 64.
Proof. destruct f; cbn [fields_tag]; try lia. intros [_ [[-> | ->] _]]; lia. Qed.

Lemma roundtrip_body f : wf_fields f -> decode_body (fields_tag f) true (fields_body f) = PdOk f.
Proof.
  intros [_ H]. destruct f; cbn [fields_tag].
  - destruct H as [? [? ?]]. now apply roundtrip_pkesk.
  - destruct H as [? [? [? [? [? [? [? [? ?]]]]]]]]. now apply roundtrip_sig4.
  - destruct H as [? [? [? [? [? ?]]]]]. now apply roundtrip_sig3.
  - now apply roundtrip_skesk4.
  - destruct H as [? [? ?]]. now apply roundtrip_skesk5.
  - destruct H as [? [? [? [? ?]]]]. now apply roundtrip_key.
  - now apply roundtrip_comp.
  - now apply roundtrip_sed.
  - destruct H. now apply roundtrip_lit.
  - apply roundtrip_uid.
  - now apply roundtrip_seipd.
  - now apply roundtrip_mdc.
  - destruct H. now apply roundtrip_aead.
Qed.

(* PacketDecode (header + body, as implemented) recovers exactly the fields of every well-formed packet the model
   encoder writes, whatever follows the packet *)
Theorem packet_roundtrip : forall f rest, wf_fields f -> packet_decode (packet_of f ++ rest) = PdOk f.
Proof.
  intros f rest H. pose proof (fields_tag_small f H) as Ht. destruct H as [Hl H'].
  unfold packet_decode, packet_of.
  rewrite packet_extract by assumption.
  unfold packet. rewrite tag_encode_small by assumption. cbn [app].
  rewrite tag_octet_new by assumption. apply roundtrip_body. now split.
Qed.
