(* PgpLenLemmas: proofs about PgpLenModel (C12): every decoder reports a consumed length that lies inside its
   input, every loop iteration consumes at least one octet (termination: the fuel of the model is never exhausted),
   the Radix-64 reverse-table index stays inside the table. *)
From Coq Require Import ZArith NArith List Bool Lia ZifyBool Arith.
From LT Require Import ListFacts gen_Tables PgpLenModel.
Import ListNotations.
Local Open Scope N_scope.

(* what a decoded length header says about the input, by the form of the result *)
Lemma length_decode_cases inp nf lt :
  match packet_length_decode inp nf lt with
  | LenErr => True
  | LenOk hl len part => (1 <= hl <= length inp)%nat /\ (hl <= 5)%nat /\ (part = true -> hl = 1%nat /\ nf = true)
  | LenIndet len => nf = false /\ lt = 3 /\ len = u32 (lenN inp)
  end.
Proof.
  unfold packet_length_decode. destruct inp as [|b0 r]; [exact I|]. destruct nf.
  - destruct (b0 <? 192); [cbn; repeat split; (lia || easy)|].
    destruct (b0 <? 224); [destruct r; cbn; repeat split; (lia || easy)|].
    destruct (b0 =? 255); [destruct r as [|b1 [|b2 [|b3 [|b4 r']]]]|]; cbn; repeat split; (lia || easy).
  - destruct (lt =? 0); [cbn; repeat split; (lia || easy)|].
    destruct (lt =? 1); [destruct r; cbn; repeat split; (lia || easy)|].
    destruct (lt =? 2); [destruct r as [|b1 [|b2 [|b3 r']]]; cbn; repeat split; (lia || easy)|].
    destruct (N.eqb_spec lt 3); now repeat split.
Qed.

Lemma length_decode_within inp nf lt hl len part :
  packet_length_decode inp nf lt = LenOk hl len part -> (1 <= hl <= length inp)%nat /\ (hl <= 5)%nat.
Proof. intro H. pose proof (length_decode_cases inp nf lt) as C. rewrite H in C. tauto. Qed.

Lemma length_decode_partial inp nf lt hl len :
  packet_length_decode inp nf lt = LenOk hl len true -> hl = 1%nat /\ nf = true.
Proof. intro H. pose proof (length_decode_cases inp nf lt) as C. rewrite H in C. now apply C. Qed.

Lemma length_decode_indet inp nf lt len :
  packet_length_decode inp nf lt = LenIndet len -> nf = false /\ lt = 3 /\ len = u32 (lenN inp).
Proof. intro H. pose proof (length_decode_cases inp nf lt) as C. now rewrite H in C. Qed.

Lemma lenN_nat (l : octets) : lenN l = N.of_nat (length l).
Proof. reflexivity. Qed.

Lemma frame_step_spec work body cur hl len part first tag w b c :
  frame_step work body cur hl len part first tag = Some (w, b, c) ->
  exists consumed, work = consumed ++ w /\ c = cur ++ consumed /\
    (length consumed = hl + N.to_nat len)%nat /\ (length b <= length body + length consumed)%nat.
Proof.
  unfold frame_step.
  destruct (N.ltb_spec (lenN work) (N.of_nat hl + len)); [discriminate|].
  destruct (part && first && (len <? 512)); [discriminate|].
  destruct (part && negb (partial_allowed tag)); [discriminate|].
  intros E; inversion E; subst; clear E.
  unfold lenN in H.
  assert (Hle : (hl + N.to_nat len <= length work)%nat) by lia.
  exists (firstn (hl + N.to_nat len) work).
  split. { symmetry; apply firstn_skipn. }
  split. { reflexivity. }
  split. { rewrite firstn_length. lia. }
  rewrite app_length, firstn_length, firstn_length, skipn_length. lia.
Qed.

(* invariant of the loop: what is consumed is a prefix of the work list and is appended to current_packet; every
   iteration that continues consumed its one-octet partial header, so the fuel only runs out if the work list
   was at least as long *)
Lemma frame_loop_spec fuel : forall work nf lt tag first body cur,
  match frame_loop fuel work nf lt tag first body cur with
  | LoopOk w b c _ | LoopErr w b c =>
      exists consumed, work = consumed ++ w /\ c = cur ++ consumed /\
        (length b <= length body + length consumed)%nat
  | LoopFuel => (fuel <= length work)%nat
  end.
Proof.
  induction fuel as [|f IH]; intros; cbn [frame_loop]; [lia|].
  destruct (packet_length_decode work nf lt) as [|hl len part|len] eqn:D.
  - exists []. cbn. rewrite app_nil_r. repeat split; lia.
  - destruct (frame_step work body cur hl len part first tag) as [[[w b] c]|] eqn:S.
    + destruct (frame_step_spec _ _ _ _ _ _ _ _ _ _ _ S) as (cons & Hw & Hc & Hl & Hb).
      destruct part.
      * destruct (length_decode_partial _ _ _ _ _ D) as [-> _]. specialize (IH w nf lt tag false b c).
        destruct (frame_loop f w nf lt tag false b c) as [w' b' c'|w' b' c' i|];
          [| |subst work; rewrite app_length; lia];
          destruct IH as (c2 & Hw2 & Hc2 & Hb2); exists (cons ++ c2); subst;
          rewrite !app_assoc; repeat split; auto; rewrite app_length; lia.
      * exists cons. repeat split; auto.
    + exists []. cbn. rewrite app_nil_r. repeat split; lia.
  - destruct (frame_step work body cur 0 len false first tag) as [[[w b] c]|] eqn:S.
    + destruct (frame_step_spec _ _ _ _ _ _ _ _ _ _ _ S) as (cons & Hw & Hc & Hl & Hb).
      exists cons. repeat split; auto.
    + exists []. cbn. rewrite app_nil_r. repeat split; lia.
Qed.

(* the loop as both callers run it: the fuel suffices *)
Lemma frame_loop_run work nf lt tag body cur :
  match frame_loop (frame_fuel work) work nf lt tag true body cur with
  | LoopOk w b c _ | LoopErr w b c =>
      exists consumed, work = consumed ++ w /\ c = cur ++ consumed /\ (length b <= length body + length consumed)%nat
  | LoopFuel => False
  end.
Proof.
  pose proof (frame_loop_spec (frame_fuel work) work nf lt tag true body cur) as S.
  destruct (frame_loop _ _ _ _ _ _ _ _); try exact S. unfold frame_fuel in S. lia.
Qed.

Lemma packet_decode_frame_cases inp :
  match packet_decode_frame inp with
  | FrameOk _ _ _ body rest cur => cur ++ rest = inp /\ (length rest < length inp)%nat /\ (length body <= length inp)%nat
  | FrameErr rest cur => cur ++ rest = inp
  | FrameFuel => False
  end.
Proof.
  unfold packet_decode_frame. destruct inp as [|t work]; [reflexivity|].
  destruct (header_tag t) as [[[nf lt] tag]|]; [|reflexivity].
  pose proof (frame_loop_run work nf lt tag [] [t]) as L.
  destruct (frame_loop _ _ _ _ _ _ _ _); try exact L; destruct L as (cons & -> & -> & Hb); cbn in *.
  - reflexivity.
  - rewrite ?app_length in *. repeat split; (reflexivity || lia).
Qed.

Lemma frame_prefix_ok inp tag nf indet body rest cur :
  packet_decode_frame inp = FrameOk tag nf indet body rest cur ->
  cur ++ rest = inp /\ (length rest < length inp)%nat /\ (length body <= length inp)%nat.
Proof. intro H. pose proof (packet_decode_frame_cases inp) as C. now rewrite H in C. Qed.

Lemma frame_prefix_err inp rest cur :
  packet_decode_frame inp = FrameErr rest cur -> cur ++ rest = inp.
Proof. intro H. pose proof (packet_decode_frame_cases inp) as C. now rewrite H in C. Qed.

Lemma frame_fuel_suffices inp : packet_decode_frame inp <> FrameFuel.
Proof. intro H. pose proof (packet_decode_frame_cases inp) as C. now rewrite H in C. Qed.

Lemma packet_body_extract_cases inp :
  match packet_body_extract inp with Some (_, body) => (length body <= length inp)%nat | None => False end.
Proof.
  unfold packet_body_extract. destruct inp as [|t work]; [cbn; lia|].
  destruct (header_tag t) as [[[nf lt] tag]|]; [|cbn; lia].
  pose proof (frame_loop_run work nf lt tag [] []) as L.
  destruct (frame_loop _ _ _ _ _ _ _ _); try exact L; destruct L as (cons & -> & _ & Hb); cbn in *; rewrite app_length; lia.
Qed.

Lemma body_extract_total inp : packet_body_extract inp <> None.
Proof. intro H. pose proof (packet_body_extract_cases inp) as C. now rewrite H in C. Qed.

Lemma body_extract_bounded inp r body :
  packet_body_extract inp = Some (r, body) -> (length body <= length inp)%nat.
Proof. intro H. pose proof (packet_body_extract_cases inp) as C. now rewrite H in C. Qed.

Lemma mpi_within inp s c v s' : mpi_decode inp s = MpiOk c v s' -> (2 <= c <= length inp)%nat.
Proof.
  unfold mpi_decode. destruct inp as [|b0 [|b1 r]]; try discriminate.
  set (buflen := (b0 * 256 + b1 + 7) / 8).
  destruct (N.ltb_spec (lenN (b0 :: b1 :: r)) (2 + buflen)); [discriminate|].
  intros E; inversion E; subst; clear E. unfold lenN in H. cbn [length] in *. lia.
Qed.

(* stated for the fold from any accumulator a, which the induction needs; a = 0 gives from_be l < 2 ^ (8 * length l) *)
Lemma from_be_bound (l : octets) : Forall (fun b => b < 256) l -> forall a, fold_left (fun a b => a * 256 + b) l a < (a + 1) * 2 ^ (8 * N.of_nat (length l)).
Proof.
  induction 1 as [|b l Hb Hl IH]; intros a; cbn [fold_left length].
  - cbn. lia.
  - specialize (IH (a * 256 + b)).
    replace (8 * N.of_nat (S (length l))) with (8 + 8 * N.of_nat (length l)) by lia.
    rewrite N.pow_add_r. change (2 ^ 8) with 256.
    assert (0 < 2 ^ (8 * N.of_nat (length l))) by (apply N.neq_0_lt_0, N.pow_nonzero; lia).
    nia.
Qed.


Lemma mpi_value_bound inp s c v s' : Forall (fun b => b < 256) inp ->
  mpi_decode inp s = MpiOk c v s' -> v < 2 ^ (8 * N.of_nat (c - 2)).
Proof.
  unfold mpi_decode. intros HF. destruct inp as [|b0 [|b1 r]]; try discriminate.
  set (buflen := (b0 * 256 + b1 + 7) / 8).
  destruct (N.ltb_spec (lenN (b0 :: b1 :: r)) (2 + buflen)); [discriminate|].
  intros E; inversion E; subst; clear E.
  inversion HF as [|? ? _ HF1]; subst. inversion HF1 as [|? ? _ HF2]; subst.
  pose proof (from_be_bound (firstn (N.to_nat buflen) r) (Forall_firstn _ _ _ HF2) 0) as B.
  unfold from_be. rewrite firstn_length in B.
  unfold lenN in H. cbn [length] in H.
  replace (Nat.min (N.to_nat buflen) (length r)) with (N.to_nat buflen) in B by lia.
  replace (S (S (N.to_nat buflen)) - 2)%nat with (N.to_nat buflen) by lia.
  lia.
Qed.

Lemma sum16_bound l : forall s, s < 65536 -> sum16 s l < 65536.
Proof.
  unfold sum16. induction l as [|b l IH]; intros s Hs; cbn [fold_left]; auto.
  apply IH. apply N.mod_lt. lia.
Qed.

Lemma mpi_sum_bound inp s c v s' : mpi_decode inp s = MpiOk c v s' -> s' < 65536.
Proof.
  unfold mpi_decode. destruct inp as [|b0 [|b1 r]]; try discriminate.
  set (buflen := (b0 * 256 + b1 + 7) / 8).
  destruct (lenN (b0 :: b1 :: r) <? 2 + buflen); [discriminate|].
  intros E; inversion E; subst; clear E.
  apply sum16_bound. unfold sum16. cbn [fold_left]. apply N.mod_lt. lia.
Qed.

Lemma subpacket_lengths_inside inp hl len0 t :
  subpacket_lengths inp = Some (hl, len0, t) -> (2 <= hl <= length inp)%nat /\ nth_error inp (hl - 1) = Some t.
Proof.
  unfold subpacket_lengths. destruct inp as [|b0 [|b1 r]]; try discriminate.
  destruct (b0 <? 192). { intros E; inversion E; subst; cbn; split; [lia|reflexivity]. }
  destruct (b0 <? 255). { destruct r as [|b2 r]; [discriminate|]. intros E; inversion E; subst; cbn; split; [lia|reflexivity]. }
  destruct (b0 =? 255); [|discriminate].
  destruct r as [|b2 [|b3 [|b4 [|b5 r]]]]; try discriminate.
  intros E; inversion E; subst; cbn; split; [lia|reflexivity].
Qed.

Lemma subpacket_header_inside inp hl len crit ty :
  subpacket_header inp = SubOk hl len crit ty -> (2 <= hl <= length inp)%nat.
Proof.
  unfold subpacket_header. destruct (subpacket_lengths inp) as [[[hl' len0] t]|] eqn:L; [|discriminate].
  destruct (len0 =? 0); [discriminate|].
  destruct (lenN inp <? u32 (N.of_nat hl' + (len0 - 1))); [discriminate|].
  intros E; inversion E; subst. apply (subpacket_lengths_inside _ _ _ _ L).
Qed.

Lemma subpacket_within_partial inp hl len crit ty :
  subpacket_header inp = SubOk hl len crit ty -> N.of_nat hl + len < 4294967296 -> N.of_nat hl + len <= lenN inp.
Proof.
  unfold subpacket_header. destruct (subpacket_lengths inp) as [[[hl' len0] t]|] eqn:L; [|discriminate].
  destruct (len0 =? 0); [discriminate|].
  destruct (N.ltb_spec (lenN inp) (u32 (N.of_nat hl' + (len0 - 1)))); [discriminate|].
  intros E; inversion E; subst. intros Hs. unfold u32 in H. rewrite N.mod_small in H by exact Hs. exact H.
Qed.

Lemma subpacket_within_refuted :
  exists inp, Forall (fun b => b < 256) inp /\ sub_slice_inside inp (subpacket_header inp) = false.
Proof.
  exists [255; 255; 255; 255; 255; 2; 1; 2; 3; 4]. split.
  - repeat constructor.
  - vm_compute. reflexivity.
Qed.

Lemma not_radix64_small b : not_radix64 b = false -> b < 128.
Proof.
  unfold not_radix64. intros H. apply negb_false_iff in H. apply existsb_exists in H.
  destruct H as (t & _ & Ht). lia.
Qed.

(* the characters Radix64Decode looks up: those the filter keeps, and the pad it appends *)
Definition r64_char_ok (b : N) : Prop := not_radix64 b = false \/ b = 61.

Lemma table_length_ge_128 : 128 <= N.of_nat (length src_fRadix64).
Proof. vm_compute. discriminate. Qed.

Lemma radix64_index_in_table b :
  r64_char_ok b -> char_index b < N.of_nat (length src_fRadix64).
Proof.
  intros H. pose proof table_length_ge_128 as T.
  assert (Hb : b < 128). { destruct H as [H|H]; [apply not_radix64_small; exact H|subst; reflexivity]. }
  unfold char_index. destruct (N.ltb_spec b 128); lia.
Qed.

Lemma r64_lookup_total b : r64_char_ok b -> r64_lookup b <> None.
Proof.
  intros H. pose proof (radix64_index_in_table b H) as I. unfold r64_lookup.
  destruct (N.ltb_spec (char_index b) (N.of_nat (length src_fRadix64))); [|lia].
  destruct (nth_error src_fRadix64 (N.to_nat (char_index b))) eqn:E; [discriminate|].
  apply nth_error_None in E. lia.
Qed.

Lemma r64_groups_total n : forall p, Forall r64_char_ok p -> (4 * n <= length p)%nat -> r64_groups n p <> None.
Proof.
  induction n as [|n IH]; intros p HF HL; cbn [r64_groups]; [discriminate|].
  destruct p as [|a [|b [|c [|d rest]]]]; cbn [length] in HL; try lia.
  inversion HF as [|? ? Ha HF1]; subst. inversion HF1 as [|? ? Hb HF2]; subst.
  inversion HF2 as [|? ? Hc HF3]; subst. inversion HF3 as [|? ? Hd HF4]; subst.
  pose proof (r64_lookup_total a Ha). pose proof (r64_lookup_total b Hb).
  pose proof (r64_lookup_total c Hc). pose proof (r64_lookup_total d Hd).
  destruct (r64_lookup a); [|congruence]. destruct (r64_lookup b); [|congruence].
  destruct (r64_lookup c); [|congruence]. destruct (r64_lookup d); [|congruence].
  specialize (IH rest HF4). destruct (r64_groups n rest); [discriminate|].
  exfalso. apply IH; [lia|reflexivity].
Qed.

Lemma padded_chars_ok s :
  Forall r64_char_ok (filter (fun b => negb (not_radix64 b)) s ++
                      repeat 61 (4 - Nat.modulo (length (filter (fun b => negb (not_radix64 b)) s)) 4)).
Proof.
  apply Forall_app. split.
  - apply Forall_forall. intros x Hx. apply filter_In in Hx. destruct Hx as [_ Hx].
    left. apply negb_true_iff in Hx. exact Hx.
  - apply Forall_forall. intros x Hx. apply repeat_spec in Hx. right. exact Hx.
Qed.

Lemma pad_len_enough len : (4 * Nat.div (len + 3) 4 <= len + (4 - Nat.modulo len 4))%nat.
Proof.
  pose proof (Nat.div_mod len 4 ltac:(lia)) as D.
  pose proof (Nat.mod_upper_bound len 4 ltac:(lia)) as M.
  pose proof (Nat.div_mod (len + 3) 4 ltac:(lia)) as D3.
  pose proof (Nat.mod_upper_bound (len + 3) 4 ltac:(lia)) as M3.
  lia.
Qed.

Lemma radix64_decode_total s : radix64_decode s <> None.
Proof.
  unfold radix64_decode. apply r64_groups_total.
  - apply padded_chars_ok.
  - rewrite app_length, repeat_length. apply pad_len_enough.
Qed.

Lemma r64_quad_length l0 l1 l2 l3 : (length (r64_quad l0 l1 l2 l3) <= 3)%nat.
Proof.
  unfold r64_quad. destruct (l1 =? 255), (l2 =? 255), (l3 =? 255); cbn; lia.
Qed.

Lemma r64_groups_length n : forall p o, r64_groups n p = Some o -> (length o <= 3 * n)%nat.
Proof.
  induction n as [|n IH]; intros p o; cbn [r64_groups].
  - intros E; inversion E; cbn; lia.
  - destruct p as [|a [|b [|c [|d rest]]]]; try discriminate.
    destruct (r64_lookup a); [|discriminate]. destruct (r64_lookup b); [|discriminate].
    destruct (r64_lookup c); [|discriminate]. destruct (r64_lookup d); [|discriminate].
    destruct (r64_groups n rest) eqn:G; [|discriminate].
    intros E; inversion E; subst. rewrite app_length.
    pose proof (r64_quad_length n0 n1 n2 n3). specialize (IH _ _ G). lia.
Qed.


Lemma radix64_decode_length s o : radix64_decode s = Some o -> (length o <= 3 * Nat.div (length s + 3) 4)%nat.
Proof.
  unfold radix64_decode. intros H. apply r64_groups_length in H.
  pose proof (filter_length_le (fun b => negb (not_radix64 b)) s) as F.
  assert (Nat.div (length (filter (fun b => negb (not_radix64 b)) s) + 3) 4 <= Nat.div (length s + 3) 4)%nat.
  { apply Nat.div_le_mono; lia. }
  lia.
Qed.
