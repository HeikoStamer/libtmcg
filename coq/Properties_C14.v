(* C14 -- Reliable broadcast: agreement, integrity, order, delivery.
   Property theorems: each is a lemma of the Rbc files or an instance of one, followed by Print Assumptions; the Examples at the
   end are concrete instances, some closed by evaluation.
   Model: RbcModel.v (per-call step functions of CachinKursawePetzoldShoupRBC and a network of n parties with
   Byzantine members); n, t, fifo_skip, the digest hash H and the digest length test are universally quantified. *)
From Coq Require Import ZArith List Bool Lia.
From LT Require Import RbcModel RbcLemmas RbcOrder RbcStep RbcAgreement RbcBracha.
Import ListNotations.
Local Open Scope Z_scope.

(* FIFO order, and no slot twice: whatever a party is handed (any messages, any senders, any interleaving of Deliver and
   DeliverFrom calls) while it stays on a FIFO channel (fifo_skip = 0), the slots it delivers from one sender w are exactly
   deliver_s[w], deliver_s[w]+1, ... in this order; every delivery carries the current channel and the reported sender *)
Theorem C14_fifo_order : forall n t H toolong me cs st st' ds,
  fifo st = true -> lrun n t 0 H toolong me st cs = (st', ds) ->
  cur st' = cur st /\ fifo st' = true /\
  Forall (fun d => id_of d = cur st /\ j_of d = who_of d) ds /\
  forall w, map s_of (from_sender w ds) = map (fun k => dls st w + Z.of_nat k) (seq 0 (length (from_sender w ds))) /\
            dls st' w = dls st w + Z.of_nat (length (from_sender w ds)).
Proof. intros n t H toolong. exact (fifo_consecutive n t 0 H toolong eq_refl). Qed.
Print Assumptions C14_fifo_order.

Theorem C14_no_dup_fifo : forall n t H toolong me cs st st' ds,
  fifo st = true -> lrun n t 0 H toolong me st cs = (st', ds) -> forall w, NoDup (map s_of (from_sender w ds)).
Proof. intros n t H toolong. exact (fifo_no_duplicate n t 0 H toolong eq_refl). Qed.
Print Assumptions C14_no_dup_fifo.

(* leaving a channel and coming back with recoverID continues the counters; a nested channel gives the parent back *)
Theorem C14_recover_continues : forall st f f',
  let st' := recover_id (unset_id st f) (cur st) f' in
  cur st' = cur st /\ sq st' = sq st /\ dls st' = dls st /\ fifo st' = f'.
Proof. exact unset_then_recover. Qed.
Print Assumptions C14_recover_continues.

(* counter recovery after k-fold unsetID / recoverID of one (nested) channel: the counters, the channel stack and the channel
   are unchanged, and the recovery table holds the CURRENT counters (the entry is refreshed by every unsetID, not only the
   first) *)
Theorem C14_recover_k_fold : forall k st f i s d r, stack st = (i, s, d) :: r ->
  let st' := leave_enter_k k st f in
  cur st' = cur st /\ sq st' = sq st /\ dls st' = dls st /\ stack st' = stack st /\
  (k <> O -> recov st' (cur st) = Some (sq st, dls st)).
Proof. exact recover_k_fold. Qed.
Print Assumptions C14_recover_k_fold.

(* whatever state u makes of the party between two visits, leaving and coming back keeps channel and counters of that state *)
Theorem C14_recover_after_traffic : forall st f1 f2 f3 f4 (u : pst -> pst),
  let st1 := leave_enter st f1 f2 in let st2 := u st1 in let st3 := leave_enter st2 f3 f4 in
  cur st3 = cur st2 /\ sq st3 = sq st2 /\ dls st3 = dls st2.
Proof. exact recover_after_traffic. Qed.
Print Assumptions C14_recover_after_traffic.

Theorem C14_nested_channel_returns : forall st id f f',
  let st' := unset_id (set_id st id f) f' in
  cur st' = cur st /\ sq st' = sq st /\ dls st' = dls st /\ stack st' = stack st /\ fifo st' = f'.
Proof. exact set_then_unset. Qed.
Print Assumptions C14_nested_channel_returns.

(* channel isolation, every mode, every fifo_skip: Deliver only hands out a value whose tag carries the current channel
   identifier; DeliverFrom only hands out buffer entries stamped with the current channel, and an entry gets into a buffer
   only by a delivery of Deliver on the channel it is stamped with *)
Theorem C14_channel_isolation_deliver : forall n t skip H toolong me st off who tg v,
  o_res (deliver n t skip H toolong me st off) = RDeliver who tg v -> exists s, tg = (cur st, who, s).
Proof. exact deliver_isolation. Qed.
Print Assumptions C14_channel_isolation_deliver.

Theorem C14_channel_isolation_deliverfrom : forall n t skip H toolong me st i off v,
  snd (deliver_from n t skip H toolong me st i off) = Some v -> In (v, cur st) (fbuf st i).
Proof. exact deliver_from_isolation. Qed.
Print Assumptions C14_channel_isolation_deliverfrom.

Theorem C14_deliverfrom_buffers : forall n t skip H toolong me st i off w v c,
  In (v, c) (fbuf (o_st (fst (deliver_from n t skip H toolong me st i off))) w) ->
  In (v, c) (fbuf st w) \/
  (c = cur st /\ exists s, o_res (fst (deliver_from n t skip H toolong me st i off)) = RDeliver w (cur st, w, s) v).
Proof. exact deliver_from_buffers. Qed.
Print Assumptions C14_deliverfrom_buffers.

(* ... and over every schedule of the network model (all n, t, Byzantine sets, interleavings of Deliver and DeliverFrom with
   channel switches): a value returned by DeliverFrom(i) at party p on channel c was delivered by Deliver at p for sender i
   under a tag of channel c -- no delivery crosses into another channel *)
Theorem C14_channel_isolation_all_schedules : forall n t skip H toolong byz es p c i v,
  In (p, c, i, v) (gapi (grun n t skip H toolong byz es)) ->
  exists s, In (p, (c, i, s), v) (glog (grun n t skip H toolong byz es)).
Proof. exact deliverfrom_isolation_run. Qed.
Print Assumptions C14_channel_isolation_all_schedules.

(* "no honest party delivers a slot twice" is FALSE without FIFO sequence numbers (finding F8): n = 4, t = 1, no faulty
   party; the ready quorum reaches P3 before the payload, and each of the three r-answers delivers *)
Theorem C14_no_dup_nonfifo_refuted : ~ no_duplicate_statement.
Proof. exact no_dup_nonfifo_refuted. Qed.
Print Assumptions C14_no_dup_nonfifo_refuted.

(* Agreement and integrity over the network model
   All n > 3t, every Byzantine set of at most t parties (byz, contained in the list B), every schedule (list of events folded
   with gstep: Broadcast / Deliver / DeliverFrom / channel switches at any honest party; the transport may delay, reorder and
   duplicate, and hands over anything on links from Byzantine parties), every fifo_skip, FIFO and non-FIFO channels.
   H is the digest hash; it is assumed never to be 0 (the code uses 0 for "no payload") and, for the value statements, injective. *)

(* the digest an honest party accepts for a slot (dbar: 2t+1 r-ready) is the same at all honest parties *)
Theorem C14_agreed_digest_unique : forall n t skip H toolong byz, 3 * t < n -> 0 <= t ->
  forall B, Z.of_nat (length B) <= t -> (forall l, byz l = true -> In l B) ->
  forall es p q tg d d',
    dbar (gp (grun n t skip H toolong byz es) p) tg = Some d ->
    dbar (gp (grun n t skip H toolong byz es) q) tg = Some d' -> d = d'.
Proof. exact dbar_agree_run. Qed.
Print Assumptions C14_agreed_digest_unique.

(* AGREEMENT: no two honest parties deliver different values for the same (ID, sender, s) -- every slot, including slots a
   party fetched through the out-of-order handler (l-retrieve / l-deliver) *)
Theorem C14_agreement : forall n t skip H toolong byz, 3 * t < n -> 0 <= t ->
  forall B, Z.of_nat (length B) <= t -> (forall l, byz l = true -> In l B) ->
  (forall m, H m <> 0) -> (forall a b, H a = H b -> a = b) ->
  forall es p q tg v v',
    In (p, tg, v) (glog (grun n t skip H toolong byz es)) -> In (q, tg, v') (glog (grun n t skip H toolong byz es)) ->
    v = v'.
Proof. exact agreement. Qed.
Print Assumptions C14_agreement.

(* INTEGRITY: a slot (id, j, s) of a non-faulty sender j is delivered only with a value v that j passed to Broadcast: the
   schedule contains that Broadcast call, and the r-send (id, j, s, v) is among the messages it sent *)
Theorem C14_integrity : forall n t skip H toolong byz, 3 * t < n -> 0 <= t ->
  forall B, Z.of_nat (length B) <= t -> (forall l, byz l = true -> In l B) ->
  (forall m, H m <> 0) -> (forall a b, H a = H b -> a = b) ->
  forall es p id j s v,
    In (p, (id, j, s), v) (glog (grun n t skip H toolong byz es)) -> byz j = false ->
    exists es1 coin es2 dst, es = es1 ++ EBcast j v coin :: es2 /\
      In (dst, Msg id j s 1 v) (snd (broadcast n j (gp (grun n t skip H toolong byz es1) j) v coin)).
Proof. exact integrity. Qed.
Print Assumptions C14_integrity.

(* the same without assuming an injective hash: equal digests *)
Theorem C14_agreement_digest : forall n t skip H toolong byz, 3 * t < n -> 0 <= t ->
  forall B, Z.of_nat (length B) <= t -> (forall l, byz l = true -> In l B) -> (forall m, H m <> 0) ->
  forall es p q tg v v',
    In (p, tg, v) (glog (grun n t skip H toolong byz es)) -> In (q, tg, v') (glog (grun n t skip H toolong byz es)) ->
    H v = H v'.
Proof. exact agreement_digest_full. Qed.
Print Assumptions C14_agreement_digest.

(* values handed out by DeliverFrom are Deliver deliveries of the same party on the same channel, hence agree too *)
Theorem C14_agreement_deliverfrom : forall n t skip H toolong byz, 3 * t < n -> 0 <= t ->
  forall B, Z.of_nat (length B) <= t -> (forall l, byz l = true -> In l B) ->
  (forall m, H m <> 0) -> (forall a b, H a = H b -> a = b) ->
  forall es p q c i v v' s,
    In (p, c, i, v) (gapi (grun n t skip H toolong byz es)) -> In (q, (c, i, s), v') (glog (grun n t skip H toolong byz es)) ->
    exists s', In (p, (c, i, s'), v) (glog (grun n t skip H toolong byz es)) /\ (s' = s -> v = v').
Proof. exact agreement_deliverfrom. Qed.
Print Assumptions C14_agreement_deliverfrom.

(* The delivery clause: validity and totality at quiescence
   Scope (exactly): all n > 3t (t >= 0), every Byzantine set of <= t parties, every schedule WITHOUT channel switches
   (forallb noswitch: every party stays on the FIFO root channel the constructor sets up; Broadcast / Deliver / DeliverFrom in
   any interleaving, Byzantine injection, reordering, duplication), fifo_skip = 0.
   quiescent = handed_over (every r-send/echo/ready/request/answer addressed to an honest party has been processed by it:
   its first-time filter is set) /\ buffers_drained (no honest party has a deliverable entry left in its deliver buffer).
   The proofs go r-send -> echo quorum -> ready quorum -> digest fixed -> delivery attempt (directly, or after fetching the
   payload by r-request / r-answer from one of the parties 0..2t that echoed) -> draining of the deliver buffer in sequence
   order (induction on s). *)
Theorem C14_validity_at_quiescence : forall n t skip H toolong byz, 3 * t < n -> 0 <= t ->
  forall B, Z.of_nat (length B) <= t -> (forall l, byz l = true -> In l B) ->
  (forall m, H m <> 0) -> (forall tg x, toolong tg (H x) = false) -> skip = 0 -> (forall a b, H a = H b -> a = b) ->
  forall es, forallb noswitch es = true ->
    handed_over n byz (grun n t skip H toolong byz es) -> buffers_drained n byz (grun n t skip H toolong byz es) ->
    forall j dst s v, honest n byz j = true -> In (j, dst, Msg 0 j s 1 v) (gsent (grun n t skip H toolong byz es)) ->
    forall q, honest n byz q = true -> In (q, (0, j, s), v) (glog (grun n t skip H toolong byz es)).
Proof. exact validity_at_quiescence. Qed.
Print Assumptions C14_validity_at_quiescence.

Theorem C14_totality_at_quiescence : forall n t skip H toolong byz, 3 * t < n -> 0 <= t ->
  forall B, Z.of_nat (length B) <= t -> (forall l, byz l = true -> In l B) ->
  (forall m, H m <> 0) -> (forall tg x, toolong tg (H x) = false) -> skip = 0 -> (forall a b, H a = H b -> a = b) ->
  forall es, forallb noswitch es = true ->
    handed_over n byz (grun n t skip H toolong byz es) -> buffers_drained n byz (grun n t skip H toolong byz es) ->
    forall p tg v, In (p, tg, v) (glog (grun n t skip H toolong byz es)) ->
    forall q, honest n byz q = true -> In (q, tg, v) (glog (grun n t skip H toolong byz es)).
Proof. exact totality_at_quiescence. Qed.
Print Assumptions C14_totality_at_quiescence.

(* ... and WITH channel switches the delivery clause is FALSE for the code as it is (finding F10): n = 4, t = 1, faulty P3;
   all protocol messages between honest parties handed over, deliver buffers drained, every honest party on the FIFO channel 7;
   P0 has delivered slot (7,3,1) -- fetched through the out-of-order handler, answered by P1 and P2 while they sat on channel 8
   (the l-retrieve handler compares s with deliver_s of the responder's current channel, not of the tag's channel) and by P3 --
   and P1 can never deliver it.  Witness RbcBracha.cross_events, checked by vm_compute. *)
Theorem C14_totality_channel_switch_refuted : ~ delivery_at_quiescence_statement 4 1 0 Hodd (fun _ _ => false) byz3.
Proof. exact totality_with_switches_refuted. Qed.
Print Assumptions C14_totality_channel_switch_refuted.

(* TOTALITY, the part that is proved (`_partial`): once every r-ready has been handed over to its honest receivers
   (ready_quiescent: the first-time filter ready[l][tag] is set for every r-ready (l -> q) in the network), a digest accepted
   for a slot by ONE honest party (dbar: 2t+1 r-ready -- the precondition of every delivery on the Bracha path) is accepted
   by EVERY honest party: t+1 honest readys reach everybody, everybody amplifies, everybody collects n-t >= 2t+1.
   This part holds with channel switches and every fifo_skip; the full delivery clause is proved above for switch-free runs
   and refuted above for runs with channel switches (finding F10). *)
Theorem C14_totality_digest_partial : forall n t skip H toolong byz, 3 * t < n -> 0 <= t ->
  forall B, Z.of_nat (length B) <= t -> (forall l, byz l = true -> In l B) ->
  (forall tg x, toolong tg (H x) = false) ->
  forall es p q tg d,
    ready_quiescent n byz (grun n t skip H toolong byz es) ->
    dbar (gp (grun n t skip H toolong byz es) p) tg = Some d -> honest n byz q = true ->
    dbar (gp (grun n t skip H toolong byz es) q) tg = Some d.
Proof. exact totality_digest. Qed.
Print Assumptions C14_totality_digest_partial.

(* r-send messages of an honest party exist only because of its own Broadcast calls (nobody can make it "send" a value) *)
Theorem C14_rsend_only_by_broadcast : forall n t skip H toolong byz es j dst m,
  In (j, dst, m) (gsent (grun n t skip H toolong byz es)) -> m_act m = 1 ->
  exists es1 v coin es2, es = es1 ++ EBcast j v coin :: es2 /\ honest n byz j = true /\
                         In (dst, m) (snd (broadcast n j (gp (grun n t skip H toolong byz es1) j) v coin)).
Proof. exact rsend_only_by_broadcast. Qed.
Print Assumptions C14_rsend_only_by_broadcast.

(* the counting core: two quorums of n - t distinct parties share a party outside any set of <= t faulty ones *)
Theorem C14_quorum_intersection : forall (n t : Z) (B L1 L2 : list Z),
  3 * t < n -> 0 <= t -> Z.of_nat (length B) <= t ->
  NoDup L1 -> NoDup L2 ->
  (forall l, In l L1 -> 0 <= l < n) -> (forall l, In l L2 -> 0 <= l < n) ->
  n - t <= Z.of_nat (length L1) -> n - t <= Z.of_nat (length L2) ->
  exists l, In l L1 /\ In l L2 /\ ~ In l B.
Proof. exact quorum_intersect_honest. Qed.
Print Assumptions C14_quorum_intersection.

Example C14_nonvacuous_f8_log : glog f8_run = [(3, (5, 0, 9), 42); (3, (5, 0, 9), 42); (3, (5, 0, 9), 42)].
Proof. exact f8_log. Qed.
(* the FIFO variant of the same schedule delivers the slot once, at P3, via the first r-answer *)
Example C14_nonvacuous_fifo_once :
  glog (grun 4 1 0 f8_H (fun _ _ => false) (fun _ => false) f8_events_fifo) = [(3, (5, 0, 1), 42)].
Proof. vm_compute. reflexivity. Qed.
(* two lists of three parties out of four and one faulty party: the shape of the premises of C14_quorum_intersection *)
Example C14_nonvacuous_quorum : exists l, In l [0; 1; 2] /\ In l [1; 2; 3] /\ ~ In l [1].
Proof. exists 2. cbn. intuition lia. Qed.

(* a real n = 4, t = 1 run meeting every premise of the agreement / integrity theorems: P0 broadcasts 42, all four deliver *)
Example C14_nonvacuous_full_run :
  glog full_run = [(0, (0, 0, 1), 42); (1, (0, 0, 1), 42); (2, (0, 0, 1), 42); (3, (0, 0, 1), 42)].
Proof. exact full_run_log. Qed.
Example C14_nonvacuous_agreement_premises :
  3 * 1 < 4 /\ (forall m, Hodd m <> 0) /\ (forall a b, Hodd a = Hodd b -> a = b) /\
  In (1, (0, 0, 1), 42) (glog full_run) /\ In (3, (0, 0, 1), 42) (glog full_run).
Proof.
  split; [lia|]. split; [exact Hodd_nonzero|]. split; [exact Hodd_inj|]. rewrite full_run_log.
  split; [cbn; auto|cbn; auto 6].
Qed.
Example C14_nonvacuous_integrity_instance :
  exists es1 coin es2 dst, full_events = es1 ++ EBcast 0 42 coin :: es2 /\
    In (dst, Msg 0 0 1 1 42) (snd (broadcast 4 0 (gp (grun 4 1 0 Hodd (fun _ _ => false) (fun _ => false) es1) 0) 42 coin)).
Proof.
  assert (N3 : 3 * 1 < 4) by lia. assert (T0 : 0 <= 1) by lia.
  assert (Bs : Z.of_nat (length (@nil Z)) <= 1) by (cbn; lia).
  assert (Bb : forall l : Z, (fun _ : Z => false) l = true -> In l []) by discriminate.
  assert (P1 : In (2, (0, 0, 1), 42) (glog full_run)) by (rewrite full_run_log; cbn; auto).
  exact (C14_integrity 4 1 0 Hodd (fun _ _ => false) (fun _ => false) N3 T0 [] Bs Bb Hodd_nonzero Hodd_inj
           full_events 2 0 0 1 42 P1 eq_refl).
Qed.

(* the run above with every r-ready handed over meets the premises of the totality theorem *)
Example C14_nonvacuous_totality_premises :
  ready_quiescent 4 (fun _ => false) quiet_run /\ dbar (gp quiet_run 0) (0, 0, 1) = Some 85 /\
  honest 4 (fun _ => false) 3 = true.
Proof. split; [exact quiet_run_quiescent|]. split; [exact quiet_run_dbar|reflexivity]. Qed.

(* a fully quiescent run meeting every premise of the validity / totality theorems; all four parties have delivered *)
Example C14_nonvacuous_quiescence :
  forallb noswitch done_events = true /\ handed_over 4 (fun _ => false) done_run /\ buffers_drained 4 (fun _ => false) done_run.
Proof. exact done_run_quiescent. Qed.
Example C14_nonvacuous_quiescence_log :
  glog done_run = [(0, (0, 0, 1), 42); (1, (0, 0, 1), 42); (2, (0, 0, 1), 42); (3, (0, 0, 1), 42)].
Proof. exact done_run_log. Qed.

Example C14_nonvacuous_cross_log :
  glog cross_run = [(1, (8, 3, 1), 50); (2, (8, 3, 1), 50); (0, (7, 3, 1), 51); (0, (7, 3, 2), 52)].
Proof. exact cross_run_log. Qed.
