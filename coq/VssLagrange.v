(* VssLagrange: the reconstruction formula of PedersenVSS::Reconstruct / GJKR-DKG::Reconstruct (model: lagrange0)
   returns f(0) for ANY set of points with distinct abscissae on a polynomial f over Z_q with at most as many
   coefficients as there are points (q prime).  Proved by root counting:
   a polynomial with fewer coefficients than distinct roots modulo a prime vanishes identically. *)
From Coq Require Import ZArith Znumtheory Lia List Bool ZifyBool.
From LT Require Import ListFacts Zbase CoinFlipArith VssModel VssLemmas.
Import ListNotations.
Local Open Scope Z_scope.

Fixpoint sdiv (cs : list Z) (a : Z) : list Z :=
  match cs with
  | [] => []
  | c :: r => match r with [] => [] | _ => peval r a :: sdiv r a end
  end.

Lemma sdiv_cons2 c c' r a : sdiv (c :: c' :: r) a = peval (c' :: r) a :: sdiv (c' :: r) a.
Proof. reflexivity. Qed.

Lemma sdiv_spec cs a x : peval cs x = (x - a) * peval (sdiv cs a) x + peval cs a.
Proof.
  induction cs as [|c r IH]; [cbn; lia|].
  destruct r as [|c' r'].
  - cbn. lia.
  - rewrite sdiv_cons2. cbn [peval] in *. rewrite IH. ring.
Qed.

Lemma sdiv_length cs a : length (sdiv cs a) = pred (length cs).
Proof.
  induction cs as [|c r IH]; [reflexivity|]. destruct r as [|c' r']; [reflexivity|].
  rewrite sdiv_cons2. cbn [length] in *. now rewrite IH.
Qed.

Lemma diff_mod_nonzero q x y : 0 <= x < q -> 0 <= y < q -> x <> y -> (x - y) mod q <> 0.
Proof. intros Hx Hy N E. apply Zmod_divide in E as [c Hc]; [|lia]. assert (c = 0) by nia. lia. Qed.

Theorem roots_zero q : prime q -> forall xs cs, (length cs <= length xs)%nat -> NoDup xs ->
  (forall x, In x xs -> 0 <= x < q) -> (forall x, In x xs -> peval cs x mod q = 0) ->
  forall z, peval cs z mod q = 0.
Proof.
  intros Hq. assert (Hq1 : 1 < q) by (destruct Hq; lia).
  induction xs as [|a xs IH]; intros cs Hlen Hnd Hrange Hroot z.
  - destruct cs; [reflexivity|cbn in Hlen; lia].
  - inversion Hnd as [|? ? Hnotin Hnd']; subst.
    assert (Ha : peval cs a mod q = 0) by (apply Hroot; now left).
    assert (HQ : forall w, peval (sdiv cs a) w mod q = 0).
    { apply IH.
      - rewrite sdiv_length. cbn [length] in Hlen. lia.
      - assumption.
      - intros x Hx. apply Hrange. now right.
      - intros x Hx.
        assert (Hxa : x <> a) by (intros ->; contradiction).
        pose proof (Hrange x (or_intror Hx)) as Rx. pose proof (Hrange a (or_introl eq_refl)) as Ra.
        pose proof (Hroot x (or_intror Hx)) as Rt. rewrite (sdiv_spec cs a x) in Rt.
        rewrite Zplus_mod, Ha, Z.add_0_r, Z.mod_mod in Rt by lia.
        apply Z.mod_divide in Rt; [|lia]. apply prime_mult in Rt; [|assumption].
        destruct Rt as [D|D].
        + exfalso. apply Zdivide_mod in D. now apply (diff_mod_nonzero q x a).
        + apply Z.mod_divide; [lia|assumption]. }
    rewrite (sdiv_spec cs a z). rewrite Zplus_mod, Ha, Z.add_0_r, Z.mod_mod by lia.
    rewrite Zmult_mod, HQ, Z.mul_0_r. reflexivity.
Qed.

Definition pscale (c : Z) (f : list Z) : list Z := map (Z.mul c) f.
Fixpoint pladd (f g : list Z) : list Z :=
  match f, g with
  | [], _ => g
  | _, [] => f
  | a :: f', b :: g' => (a + b) :: pladd f' g'
  end.
Definition pmul_lin (a : Z) (f : list Z) : list Z := pladd (pscale a f) (0 :: pscale (-1) f).   (* (a - X) * f *)
Definition basis (ys : list Z) : list Z := fold_right pmul_lin [1] ys.                           (* prod (y - X) *)
Fixpoint linprod (ys : list Z) (x : Z) : Z := match ys with [] => 1 | y :: r => (y - x) * linprod r x end.

Lemma peval_pscale c f x : peval (pscale c f) x = c * peval f x.
Proof. induction f as [|a f IH]; cbn [pscale map peval]; [lia|]. fold (pscale c f). rewrite IH. ring. Qed.
Lemma peval_pladd f g x : peval (pladd f g) x = peval f x + peval g x.
Proof.
  revert g. induction f as [|a f IH]; intros g; [cbn; lia|]. destruct g as [|b g]; [cbn; lia|].
  cbn [pladd peval]. rewrite IH. ring.
Qed.
Lemma length_pscale c f : length (pscale c f) = length f.
Proof. apply map_length. Qed.
Lemma length_pladd f g : length (pladd f g) = Nat.max (length f) (length g).
Proof.
  revert g. induction f as [|a f IH]; intros g; [reflexivity|]. destruct g as [|b g]; [reflexivity|].
  cbn [pladd length]. rewrite IH. reflexivity.
Qed.
Lemma peval_pmul_lin a f x : peval (pmul_lin a f) x = (a - x) * peval f x.
Proof. unfold pmul_lin. rewrite peval_pladd. cbn [peval]. rewrite !peval_pscale. ring. Qed.
Lemma length_pmul_lin a f : length (pmul_lin a f) = S (length f).
Proof. unfold pmul_lin. rewrite length_pladd. cbn [length]. rewrite !length_pscale. apply Nat.max_r. lia. Qed.
Lemma peval_basis ys x : peval (basis ys) x = linprod ys x.
Proof. induction ys as [|y r IH]; cbn [basis fold_right linprod]; [cbn [peval]; lia|]. fold (basis r). rewrite peval_pmul_lin, IH. reflexivity. Qed.
Lemma length_basis ys : length (basis ys) = S (length ys).
Proof. induction ys as [|y r IH]; [reflexivity|]. cbn [basis fold_right]. fold (basis r). rewrite length_pmul_lin, IH. reflexivity. Qed.

Lemma fold_den ys xj a : fold_left (fun acc x => acc * (x - xj)) ys a = a * linprod ys xj.
Proof. revert a. induction ys as [|y r IH]; intros a; cbn [fold_left linprod]; [lia|]. rewrite IH. ring. Qed.
Lemma fold_num ys a : fold_left Z.mul ys a = a * linprod ys 0.
Proof. revert a. induction ys as [|y r IH]; intros a; cbn [fold_left linprod]; [lia|]. rewrite IH. ring. Qed.
Lemma lag_den_linprod xs xj : lag_den xs xj = linprod (others xs xj) xj.
Proof. unfold lag_den. rewrite fold_den. lia. Qed.
Lemma lag_num_linprod xs xj : lag_num xs xj = linprod (others xs xj) 0.
Proof. unfold lag_num. rewrite fold_num. lia. Qed.

Lemma linprod_zero ys x : In x ys -> linprod ys x = 0.
Proof. induction ys as [|y r IH]; [contradiction|]. intros [->|H]; cbn [linprod]; [lia|]. rewrite IH by assumption. lia. Qed.
Lemma in_others xs xj x : In x xs -> x <> xj -> In x (others xs xj).
Proof. intros. unfold others. apply filter_In. split; [assumption|]. apply negb_true_iff. now apply Z.eqb_neq. Qed.
Lemma length_others xs xj : In xj xs -> (S (length (others xs xj)) <= length xs)%nat.
Proof.
  induction xs as [|y r IH]; [contradiction|]. intros [->|H]; cbn [others filter length].
  - rewrite Z.eqb_refl. cbn [negb]. pose proof (filter_length_le (fun x => negb (x =? xj)) r). lia.
  - destruct (negb (y =? xj)); cbn [length]; specialize (IH H); unfold others in IH; lia.
Qed.

(* the Lagrange interpolant as a coefficient list *)
Definition den_inv (q : Z) (xs : list Z) (xj : Z) : Z := match invm (lag_den xs xj) q with Some iv => iv | None => 0 end.
Definition lag_cof (q : Z) (xs : list Z) (pt : Z * Z) : Z := snd pt * den_inv q xs (fst pt).
Fixpoint Lpoly (q : Z) (xs : list Z) (pts : list (Z * Z)) : list Z :=
  match pts with
  | [] => []
  | pt :: r => pladd (pscale (lag_cof q xs pt) (basis (others xs (fst pt)))) (Lpoly q xs r)
  end.

Lemma Lpoly_length q xs pts : (forall pt, In pt pts -> In (fst pt) xs) -> (length (Lpoly q xs pts) <= length xs)%nat.
Proof.
  induction pts as [|pt r IH]; intros H; cbn [Lpoly]; [cbn; lia|].
  rewrite length_pladd, length_pscale, length_basis.
  pose proof (length_others xs (fst pt) (H pt (or_introl eq_refl))).
  specialize (IH (fun pt' Hin => H pt' (or_intror Hin))). lia.
Qed.

Lemma Lpoly_at_other q xs pts xi : In xi xs -> ~ In xi (map fst pts) -> peval (Lpoly q xs pts) xi = 0.
Proof.
  intros Hxi. induction pts as [|pt r IH]; intros Hn; cbn [Lpoly]; [reflexivity|].
  cbn [map] in Hn. rewrite peval_pladd, peval_pscale, peval_basis.
  rewrite linprod_zero by (apply in_others; [assumption|]; intros E; apply Hn; now left).
  rewrite IH by (intros E; apply Hn; now right). lia.
Qed.

Lemma Lpoly_at q xs pts xi yi : In xi xs -> NoDup (map fst pts) -> In (xi, yi) pts ->
  peval (Lpoly q xs pts) xi = lag_cof q xs (xi, yi) * lag_den xs xi.
Proof.
  intros Hxi. induction pts as [|pt r IH]; intros Hnd Hin; [contradiction|].
  cbn [map] in Hnd. inversion Hnd as [|? ? Hnotin Hnd']; subst. cbn [Lpoly].
  rewrite peval_pladd, peval_pscale, peval_basis. destruct Hin as [->|Hin].
  - cbn [fst]. rewrite Lpoly_at_other by assumption. rewrite lag_den_linprod. lia.
  - assert (Hne : xi <> fst pt).
    { intros ->. apply Hnotin. apply in_map_iff. exists (fst pt, yi). split; [reflexivity|assumption]. }
    rewrite linprod_zero by (apply in_others; assumption). rewrite IH by assumption. lia.
Qed.

Fixpoint lag_sum0 (q : Z) (xs : list Z) (pts : list (Z * Z)) : Z :=
  match pts with [] => 0 | pt :: r => lag_cof q xs pt * lag_num xs (fst pt) + lag_sum0 q xs r end.
Lemma Lpoly_at0 q xs pts : peval (Lpoly q xs pts) 0 = lag_sum0 q xs pts.
Proof.
  induction pts as [|pt r IH]; [reflexivity|]. cbn [Lpoly lag_sum0].
  rewrite peval_pladd, peval_pscale, peval_basis, IH, lag_num_linprod. reflexivity.
Qed.

(* what lag_go computes, and that every inverse it used exists *)
Lemma lag_go_spec q xs : forall pts acc r, lag_go q xs pts (acc mod q) = Some r ->
  r = (acc + lag_sum0 q xs pts) mod q /\
  (forall pt, In pt pts -> invm (lag_den xs (fst pt)) q = Some (den_inv q xs (fst pt))).
Proof.
  induction pts as [|[xj yj] rest IH]; intros acc r E; cbn [lag_go] in E.
  - injection E as <-. cbn [lag_sum0]. split; [now rewrite Z.add_0_r|contradiction].
  - destruct (invm (lag_den xs xj) q) as [iv|] eqn:I; [|discriminate].
    rewrite Zplus_mod_idemp_l, Zmult_mod_idemp_r, Zplus_mod_idemp_r in E. apply IH in E as (-> & E2). split.
    + cbn [lag_sum0 fst snd]. unfold lag_cof, den_inv. cbn [fst snd]. rewrite I. f_equal. ring.
    + intros pt [<-|Hin]; [cbn [fst]; unfold den_inv; now rewrite I|now apply E2].
Qed.

(* soundness: whatever the reconstruction formula returns is f(0) *)
Theorem lagrange0_sound q cs pts r : prime q ->
  (length cs <= length pts)%nat ->
  NoDup (map fst pts) ->
  (forall x y, In (x, y) pts -> 0 <= x < q /\ y mod q = poly_eval q cs x) ->
  lagrange0 q pts = Some r -> r = poly_eval q cs 0.
Proof.
  intros Hq Hlen Hnd Hpts E. assert (Hq1 : 1 < q) by (destruct Hq; lia).
  unfold lagrange0 in E. set (xs := map fst pts) in *.
  apply (lag_go_spec q xs pts 0) in E as [-> E2].
  set (D := pladd (Lpoly q xs pts) (pscale (-1) cs)).
  assert (HD : forall z, peval D z mod q = 0).
  { apply (roots_zero q Hq xs).
    - unfold D. rewrite length_pladd, length_pscale.
      assert (length (Lpoly q xs pts) <= length xs)%nat.
      { apply Lpoly_length. intros pt Hin. unfold xs. now apply in_map. }
      unfold xs in *. rewrite map_length in *. lia.
    - exact Hnd.
    - intros x Hx. unfold xs in Hx. apply in_map_iff in Hx. destruct Hx as ([x' y] & <- & Hin). cbn [fst]. now apply (Hpts x' y).
    - intros x Hx. pose proof Hx as Hx'. unfold xs in Hx. apply in_map_iff in Hx. destruct Hx as ([x' y] & <- & Hin).
      cbn [fst] in *. unfold D. rewrite peval_pladd, peval_pscale.
      rewrite (Lpoly_at q xs pts x' y Hx' Hnd Hin).
      destruct (Hpts x' y Hin) as [Rx Hy]. rewrite poly_eval_peval in Hy.
      pose proof (E2 (x', y) Hin) as I. cbn [fst] in I. apply invm_inverse in I; [|lia]. destruct I as [_ I].
      unfold lag_cof. cbn [fst snd].
      replace (y * den_inv q xs x' * lag_den xs x' + -1 * peval cs x') with (y * (lag_den xs x' * den_inv q xs x') - peval cs x') by ring.
      assert (A : (y * (lag_den xs x' * den_inv q xs x')) mod q = y mod q).
      { rewrite <- Zmult_mod_idemp_r. rewrite I. rewrite Z.mul_1_r. reflexivity. }
      rewrite Zminus_mod, A, Hy. rewrite Z.sub_diag. reflexivity. }
  specialize (HD 0). unfold D in HD. rewrite peval_pladd, peval_pscale, Lpoly_at0 in HD.
  rewrite poly_eval_peval. apply mod_sub_0. etransitivity; [|exact HD]. f_equal; ring.
Qed.

(* consequence used for "one and the same secret": two point sets on the same polynomial reconstruct the same value *)
Corollary lagrange0_same_secret q cs pts1 pts2 r1 r2 : prime q ->
  (length cs <= length pts1)%nat -> (length cs <= length pts2)%nat ->
  NoDup (map fst pts1) -> NoDup (map fst pts2) ->
  (forall x y, In (x, y) pts1 -> 0 <= x < q /\ y mod q = poly_eval q cs x) ->
  (forall x y, In (x, y) pts2 -> 0 <= x < q /\ y mod q = poly_eval q cs x) ->
  lagrange0 q pts1 = Some r1 -> lagrange0 q pts2 = Some r2 -> r1 = r2.
Proof.
  intros Hq L1 L2 N1 N2 P1 P2 E1 E2.
  rewrite (lagrange0_sound q cs pts1 r1), (lagrange0_sound q cs pts2 r2); auto.
Qed.

(* completeness: for abscissae in [0, q), q prime, no inversion fails (distinct residues differ modulo q, and a product of
   units is a unit), so the formula returns a value *)
Lemma linprod_nonzero q ys x : prime q -> Forall (fun y => (y - x) mod q <> 0) ys -> linprod ys x mod q <> 0.
Proof.
  intros Hq. pose proof (prime_gt1 q Hq).
  induction 1 as [|y r Hy _ IH]; cbn [linprod]; [rewrite Z.mod_1_l; lia|].
  intros E. apply Zmod_divide in E; [|lia]. apply prime_mult in E; [|assumption].
  destruct E as [E|E]; apply Zdivide_mod in E; contradiction.
Qed.

Lemma lag_den_invertible q S xj : prime q -> Forall (fun x => 0 <= x < q) S -> In xj S ->
  exists iv, invm (lag_den S xj) q = Some iv.
Proof.
  intros Hq Hr Hin. apply invm_prime; [assumption|]. rewrite lag_den_linprod.
  apply linprod_nonzero; [assumption|]. apply Forall_forall. intros y Hy.
  apply filter_In in Hy as [Hy Hne]. apply negb_true_iff, Z.eqb_neq in Hne.
  rewrite Forall_forall in Hr. apply diff_mod_nonzero; auto.
Qed.

Lemma lag_go_complete q xs pts : (forall pt, In pt pts -> exists iv, invm (lag_den xs (fst pt)) q = Some iv) ->
  forall acc, exists r, lag_go q xs pts acc = Some r.
Proof.
  induction pts as [|[xj yj] rest IH]; intros H acc; cbn [lag_go]; [eauto|].
  destruct (H (xj, yj) (or_introl eq_refl)) as [iv E]. cbn [fst] in E. rewrite E. apply IH. intros pt Hin. apply H. now right.
Qed.

Theorem lagrange0_complete q pts : prime q -> Forall (fun x => 0 <= x < q) (map fst pts) -> exists r, lagrange0 q pts = Some r.
Proof.
  intros Hq Hr. apply lag_go_complete. intros pt Hin. apply lag_den_invertible; [assumption..|now apply in_map].
Qed.
