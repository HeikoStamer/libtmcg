(* C05 -- Proofs bind every public input and every transmitted value.
   Property theorems only: each is a lemma of the C05 lemma files (or of Zbase.v) or an instance of one, followed by Print Assumptions;
   the coverage obligations and the examples at the end are closed by evaluation. *)
From Coq Require Import ZArith Znumtheory List Bool Lia.
From LT Require Import Zbase gen_Consts gen_FSInputs FsModel FsLemmas VtmfVerModel VtmfVerLemmas SkcModel SkcLemmas.
Import ListNotations.
Local Open Scope Z_scope.

Theorem C05_fs_ser_injective : forall l1 l2 : list Z, fs_ser l1 = fs_ser l2 -> l1 = l2.
Proof. exact fs_ser_inj. Qed.
Print Assumptions C05_fs_ser_injective.

Theorem C05_fs_ser_vector_injective : forall v v' a a' : list Z, length v = length v' ->
  fs_ser (v ++ a) = fs_ser (v' ++ a') -> v = v' /\ a = a'.
Proof. exact fs_ser_vec_inj. Qed.
Print Assumptions C05_fs_ser_vector_injective.

Theorem C05_fs_single_change : forall (pre post : list Z) (x y : Z), x <> y ->
  fs_ser (pre ++ x :: post) <> fs_ser (pre ++ y :: post).
Proof. exact fs_ser_single_change. Qed.
Print Assumptions C05_fs_single_change.

(* coverage of the Fiat-Shamir hash calls in the current source (gen_FSInputs.v is regenerated on every run):
   the prover's and the verifier's call hash exactly the expected expressions in the same order, the literal
   argument count equals the number of arguments, and the roles cover group / commitment key, every statement
   component and every prover commitment.  A dropped or reordered hash input breaks the obligation named here. *)
Theorem C05_fs_covers_keynizk : fs_obligation keynizk_P keynizk_V keynizk_req = true.
Proof. exact (eq_refl true <: fs_obligation keynizk_P keynizk_V keynizk_req = true). Qed.
Print Assumptions C05_fs_covers_keynizk.
Theorem C05_fs_covers_cp : fs_obligation cp_P cp_V cp_req = true.
Proof. exact (eq_refl true <: fs_obligation cp_P cp_V cp_req = true). Qed.
Print Assumptions C05_fs_covers_cp.
Theorem C05_fs_covers_or_first : fs_obligation or_P1 or_V or_req = true.
Proof. exact (eq_refl true <: fs_obligation or_P1 or_V or_req = true). Qed.
Print Assumptions C05_fs_covers_or_first.
Theorem C05_fs_covers_or_second : fs_obligation or_P2 or_V or_req = true.
Proof. exact (eq_refl true <: fs_obligation or_P2 or_V or_req = true). Qed.
Print Assumptions C05_fs_covers_or_second.
Theorem C05_fs_covers_skc_x : fs_obligation skc_x_P (skc_x_V 0) skc_x_req && fs_obligation skc_x_P (skc_x_V 1) skc_x_req = true.
Proof. exact (eq_refl true <: fs_obligation skc_x_P (skc_x_V 0) skc_x_req && fs_obligation skc_x_P (skc_x_V 1) skc_x_req = true). Qed.
Print Assumptions C05_fs_covers_skc_x.
Theorem C05_fs_covers_skc_e : fs_obligation skc_e_P (skc_e_V 0) skc_e_req && fs_obligation skc_e_P (skc_e_V 1) skc_e_req = true.
Proof. exact (eq_refl true <: fs_obligation skc_e_P (skc_e_V 0) skc_e_req && fs_obligation skc_e_P (skc_e_V 1) skc_e_req = true). Qed.
Print Assumptions C05_fs_covers_skc_e.
Theorem C05_fs_covers_vsshe_t : fs_obligation vsshe_t_P vsshe_t_V vsshe_t_req = true.
Proof. exact (eq_refl true <: fs_obligation vsshe_t_P vsshe_t_V vsshe_t_req = true). Qed.
Print Assumptions C05_fs_covers_vsshe_t.
Theorem C05_fs_covers_vsshe_lambda : fs_obligation vsshe_l_P vsshe_l_V vsshe_l_req = true.
Proof. exact (eq_refl true <: fs_obligation vsshe_l_P vsshe_l_V vsshe_l_req = true). Qed.
Print Assumptions C05_fs_covers_vsshe_lambda.
Theorem C05_fs_covers_pubrot_beta : fs_obligation pr_b_P pr_b_V pr_b_req = true.
Proof. exact (eq_refl true <: fs_obligation pr_b_P pr_b_V pr_b_req = true). Qed.
Print Assumptions C05_fs_covers_pubrot_beta.
Theorem C05_fs_covers_pubrot_lambda : fs_obligation pr_l_P pr_l_V pr_l_req = true.
Proof. exact (eq_refl true <: fs_obligation pr_l_P pr_l_V pr_l_req = true). Qed.
Print Assumptions C05_fs_covers_pubrot_lambda.
Theorem C05_fs_covers_rot_alpha : fs_obligation rot_a_P rot_a_V rot_a_req = true.
Proof. exact (eq_refl true <: fs_obligation rot_a_P rot_a_V rot_a_req = true). Qed.
Print Assumptions C05_fs_covers_rot_alpha.
Theorem C05_fs_covers_rot_lambda : fs_obligation rot_l_P rot_l_V rot_l_req = true.
Proof. exact (eq_refl true <: fs_obligation rot_l_P rot_l_V rot_l_req = true). Qed.
Print Assumptions C05_fs_covers_rot_lambda.

Theorem C05_key_accept_iff : forall H G foo c r,
  key_verify H G foo c r = Accept <->
  check_element G foo = true /\ bits c <= ghb G /\ Z.abs r < gq G /\
  exists t2 c2, fpowm (gtg G) (tlen G) (gg G) r (gp G) = Some t2 /\ mpz_powm foo c (gp G) = Some c2 /\
                c = H (key_hash_input G foo ((t2 * c2) mod gp G)).
Proof. exact key_accept_iff. Qed.
Print Assumptions C05_key_accept_iff.

Theorem C05_key_range_rules : forall H G foo c r, key_verify H G foo c r = Accept ->
  - gq G < r < gq G /\ bits c <= ghb G /\ 0 < foo < gp G /\ powm foo (gq G) (gp G) = 1.
Proof. exact key_range_rules. Qed.
Print Assumptions C05_key_range_rules.

Theorem C05_cp_accept_iff : forall H G x y g' h' c r fp,
  cp_verify H G x y g' h' c r fp = Accept <->
  bits c <= ghb G /\ Z.abs r < gq G /\ (fp = true -> gg G = g' /\ gh G = h') /\
  exists a0 xc b0 yc,
    (if fp then fpowm (gtg G) (tlen G) g' r (gp G) else mpz_powm g' r (gp G)) = Some a0 /\
    mpz_powm x c (gp G) = Some xc /\
    (if fp then fpowm (gth G) (tlen G) h' r (gp G) else mpz_powm h' r (gp G)) = Some b0 /\
    mpz_powm y c (gp G) = Some yc /\
    H (cp_hash_input G ((a0 * xc) mod gp G) ((b0 * yc) mod gp G) x y g' h') = c.
Proof. exact cp_accept_iff. Qed.
Print Assumptions C05_cp_accept_iff.

Theorem C05_cp_range_rules : forall H G x y g' h' c r fp, cp_verify H G x y g' h' c r fp = Accept ->
  - gq G < r < gq G /\ bits c <= ghb G /\ (fp = true -> gg G = g' /\ gh G = h').
Proof. exact cp_range_rules. Qed.
Print Assumptions C05_cp_range_rules.

Theorem C05_mask_accept_iff : forall H G m c1 c2 c r,
  mask_verify H G m c1 c2 c r = Accept <->
  check_element G m = true /\ check_element G c1 = true /\ check_element G c2 = true /\
  exists mi, invm m (gp G) = Some mi /\ cp_verify H G c1 ((mi * c2) mod gp G) (gg G) (gh G) c r true = Accept.
Proof. exact mask_accept_iff. Qed.
Print Assumptions C05_mask_accept_iff.

Theorem C05_remask_accept_iff : forall H G c1 c2 d1 d2 c r,
  remask_verify H G c1 c2 d1 d2 c r = Accept <->
  check_element G c1 = true /\ check_element G c2 = true /\ check_element G d1 = true /\ check_element G d2 = true /\
  exists i1 i2, invm c1 (gp G) = Some i1 /\ invm c2 (gp G) = Some i2 /\
    cp_verify H G ((i1 * d1) mod gp G) ((i2 * d2) mod gp G) (gg G) (gh G) c r true = Accept.
Proof. exact remask_accept_iff. Qed.
Print Assumptions C05_remask_accept_iff.

(* membership rules (38c5983, e22f683, fdc4557): every group element a masking / re-masking / OR statement speaks about
   lies in (0,p) and in the order-q subgroup -- a non-member or out-of-range public input is refused, not reduced *)
Theorem C05_mask_member_rules : forall H G m c1 c2 c r, mask_verify H G m c1 c2 c r = Accept ->
  (0 < m < gp G /\ powm m (gq G) (gp G) = 1) /\ (0 < c1 < gp G /\ powm c1 (gq G) (gp G) = 1) /\
  (0 < c2 < gp G /\ powm c2 (gq G) (gp G) = 1).
Proof. exact mask_member_rules. Qed.
Print Assumptions C05_mask_member_rules.

Theorem C05_remask_member_rules : forall H G c1 c2 d1 d2 c r, remask_verify H G c1 c2 d1 d2 c r = Accept ->
  (0 < c1 < gp G /\ powm c1 (gq G) (gp G) = 1) /\ (0 < c2 < gp G /\ powm c2 (gq G) (gp G) = 1) /\
  (0 < d1 < gp G /\ powm d1 (gq G) (gp G) = 1) /\ (0 < d2 < gp G /\ powm d2 (gq G) (gp G) = 1).
Proof. exact remask_member_rules. Qed.
Print Assumptions C05_remask_member_rules.

Theorem C05_or_member_rules : forall H G y1 y2 g1 g2 c1 c2 r1 r2, or_verify H G y1 y2 g1 g2 c1 c2 r1 r2 = Accept ->
  (0 < y1 < gp G /\ powm y1 (gq G) (gp G) = 1) /\ (0 < y2 < gp G /\ powm y2 (gq G) (gp G) = 1).
Proof. exact or_member_rules. Qed.
Print Assumptions C05_or_member_rules.

Theorem C05_decrypt_accept_iff : forall H G c1 hj dj c r,
  decrypt_verify H G c1 hj dj c r = Accept <->
  exists k, hj = Some k /\ check_element G dj = true /\ cp_verify H G dj k c1 (gg G) c r false = Accept.
Proof. exact decrypt_accept_iff. Qed.
Print Assumptions C05_decrypt_accept_iff.

(* the recomputed commitment g^r * X is injective in the response modulo q (X = statement^c, invertible) *)
Theorem C05_recommit_inj : forall p q g : Z, 1 < p -> prime q -> powm g q p = 1 -> g mod p <> 1 ->
  forall r r' X Xi, 0 <= r -> 0 <= r' -> (X * Xi) mod p = 1 ->
  ((powm g r p * X) mod p = (powm g r' p * X) mod p <-> r mod q = r' mod q).
Proof. exact recommit_inj. Qed.
Print Assumptions C05_recommit_inj.

(* replacing an in-range response by a different in-range one changes the string that is hashed *)
Theorem C05_key_response_changes_hash_input : forall (G : grp) (foo r r' X Xi : Z),
  1 < gp G -> prime (gq G) -> powm (gg G) (gq G) (gp G) = 1 -> gg G mod gp G <> 1 ->
  0 <= r < gq G -> 0 <= r' < gq G -> r <> r' -> (X * Xi) mod gp G = 1 ->
  fs_ser (key_hash_input G foo ((powm (gg G) r (gp G) * X) mod gp G)) <>
  fs_ser (key_hash_input G foo ((powm (gg G) r' (gp G) * X) mod gp G)).
Proof. exact key_response_changes_hash_input. Qed.
Print Assumptions C05_key_response_changes_hash_input.

(* when a mutation leaves the hash input unchanged, a changed challenge is refused (no random-oracle step) *)
Theorem C05_key_same_input_rejects : forall H G foo c c' r r' t,
  key_verify H G foo c r = Accept -> key_verify H G foo c' r' = Accept ->
  (forall t2 c2, fpowm (gtg G) (tlen G) (gg G) r (gp G) = Some t2 -> mpz_powm foo c (gp G) = Some c2 -> (t2 * c2) mod gp G = t) ->
  (forall t2 c2, fpowm (gtg G) (tlen G) (gg G) r' (gp G) = Some t2 -> mpz_powm foo c' (gp G) = Some c2 -> (t2 * c2) mod gp G = t) ->
  c = c'.
Proof. exact key_same_commitment_same_challenge. Qed.
Print Assumptions C05_key_same_input_rejects.

(* interactive key-share proof (code after de8b018 / 0abf554) *)
Theorem C05_keyint_accept_iff : forall G key m1 c m2,
  keyint_verify G key m1 c m2 = Accept <->
  check_element G m1 = true /\ check_element G key = true /\ Z.abs m2 < gq G /\
  exists v kc ki, fpowm (gtg G) (tlen G) (gg G) m2 (gp G) = Some v /\ mpz_powm key c (gp G) = Some kc /\
                  invm kc (gp G) = Some ki /\ m1 = (v * ki) mod gp G.
Proof. exact keyint_accept_iff. Qed.
Print Assumptions C05_keyint_accept_iff.

(* the public input `key` must be a member of the order-q subgroup in (0,p) *)
Theorem C05_keyint_key_member : forall G key m1 c m2, keyint_verify G key m1 c m2 = Accept ->
  0 < key < gp G /\ powm key (gq G) (gp G) = 1.
Proof. exact keyint_key_member. Qed.
Print Assumptions C05_keyint_key_member.

(* a response in (-q,q) is raised as its residue modulo q: negative values are handled by inversion *)
Theorem C05_fpowm_in_range : forall G : grp, 1 < gp G -> prime (gq G) -> powm (gg G) (gq G) (gp G) = 1 ->
  bits (gq G) <= TMCG_MAX_FPOWM_T ->
  forall x v, - gq G < x < gq G -> fpowm (gtg G) (tlen G) (gg G) x (gp G) = Some v -> v = powm (gg G) (x mod gq G) (gp G).
Proof. intros G Hp _. exact (fpowm_in_range G Hp). Qed.
Print Assumptions C05_fpowm_in_range.

(* unconditional binding of the interactive response (since de8b018 the sign of m_2 is read before the aliased write,
   so -m_2 no longer passes for m_2): two accepted responses to the same (key, m_1, c) are the same residue modulo q,
   so a response of another residue is refused *)
Theorem C05_keyint_response_bound : forall G : grp, 1 < gp G -> prime (gq G) -> powm (gg G) (gq G) (gp G) = 1 ->
  gg G mod gp G <> 1 -> bits (gq G) <= TMCG_MAX_FPOWM_T ->
  forall key m1 c m2 m2',
  keyint_verify G key m1 c m2 = Accept -> keyint_verify G key m1 c m2' = Accept -> m2 mod gq G = m2' mod gq G.
Proof. exact keyint_response_bound. Qed.
Print Assumptions C05_keyint_response_bound.

Theorem C05_interactive_mut_rejects : forall G : grp, 1 < gp G -> prime (gq G) -> powm (gg G) (gq G) (gp G) = 1 ->
  gg G mod gp G <> 1 -> bits (gq G) <= TMCG_MAX_FPOWM_T ->
  forall key m1 c m2 m2',
  keyint_verify G key m1 c m2 = Accept -> m2 mod gq G <> m2' mod gq G -> keyint_verify G key m1 c m2' <> Accept.
Proof. exact keyint_other_residue_rejected. Qed.
Print Assumptions C05_interactive_mut_rejects.

Theorem C05_invm_spec : forall a p i, 1 < p -> invm a p = Some i -> 0 <= i < p /\ (i * a) mod p = 1.
Proof. intros a p i. rewrite Z.mul_comm. apply invm_inverse. Qed.
Print Assumptions C05_invm_spec.

(* OR proof (code after fae6d38, fdc4557) *)
Theorem C05_or_accept_iff : forall H G y1 y2 g1 g2 c1 c2 r1 r2,
  or_verify H G y1 y2 g1 g2 c1 c2 r1 r2 = Accept <->
  Z.abs r1 < gq G /\ Z.abs r2 < gq G /\ Z.abs c1 < gq G /\ Z.abs c2 < gq G /\
  check_element G y1 = true /\ check_element G y2 = true /\
  exists a1 b1 a2 b2, mpz_powm y1 c1 (gp G) = Some a1 /\ mpz_powm g1 r1 (gp G) = Some b1 /\
    mpz_powm y2 c2 (gp G) = Some a2 /\ mpz_powm g2 r2 (gp G) = Some b2 /\
    (c1 + c2) mod gq G = H (or_hash_input G g1 y1 g2 y2 ((a1 * b1) mod gp G) ((a2 * b2) mod gp G)) mod gq G.
Proof. exact or_accept_iff. Qed.
Print Assumptions C05_or_accept_iff.

Theorem C05_or_range_rules : forall H G y1 y2 g1 g2 c1 c2 r1 r2, or_verify H G y1 y2 g1 g2 c1 c2 r1 r2 = Accept ->
  - gq G < c1 < gq G /\ - gq G < c2 < gq G /\ - gq G < r1 < gq G /\ - gq G < r2 < gq G.
Proof. exact or_range_rules. Qed.
Print Assumptions C05_or_range_rules.

(* a challenge part shifted by q is refused, not reduced (fae6d38) *)
Theorem C05_or_plus_q_rejected : forall H G y1 y2 g1 g2 c1 c2 r1 r2, 0 < gq G -> 0 <= c1 ->
  or_verify H G y1 y2 g1 g2 (c1 + gq G) c2 r1 r2 <> Accept.
Proof. exact or_plus_q_rejected. Qed.
Print Assumptions C05_or_plus_q_rejected.


(* Pedersen commitments and the shuffle of known content (code after e411aec / 25cc964) *)
Theorem C05_test_membership_spec : forall K c, test_membership K c = true <-> 0 < c < kp K /\ powm c (kq K) (kp K) = 1.
Proof. exact test_membership_spec. Qed.
Print Assumptions C05_test_membership_spec.

Theorem C05_ped_accept_iff : forall K c r ms,
  ped_verify K c r ms = Accept <-> 0 <= r < kq K /\ 0 < c < kp K /\ recommit K r ms = Some c.
Proof. exact ped_accept_iff. Qed.
Print Assumptions C05_ped_accept_iff.

(* 0 <= r < q: a negative randomizer is refused (25cc964), the commitment lies in (0,p) *)
Theorem C05_ped_range_rules : forall K c r ms, ped_verify K c r ms = Accept -> 0 <= r < kq K /\ 0 < c < kp K.
Proof. exact ped_range_rules. Qed.
Print Assumptions C05_ped_range_rules.

(* an opening binds its randomizer unconditionally: two accepted openings of the same (c, m) have the same r *)
Theorem C05_ped_randomizer_bound : forall K c r r' ms,
  prime (kp K) -> prime (kq K) -> powm (kh K) (kq K) (kp K) = 1 -> kh K mod kp K <> 1 -> bits (kq K) <= TMCG_MAX_FPOWM_T ->
  ped_verify K c r ms = Accept -> ped_verify K c r' ms = Accept -> r = r'.
Proof. exact ped_randomizer_bound. Qed.
Print Assumptions C05_ped_randomizer_bound.

(* REFUTED on the code as it is: "messages not below q are refused" -- Verify does not range-check m_i, so m + q opens
   the same commitment while it fits the power table (known findings pedersen.m.plusq, pedersen.m.negfar) *)
Theorem C05_pedersen_message_range_refuted : forall K c r g m, 0 < kp K -> 0 < kq K -> 0 <= m -> kg K = [g] ->
  powm g (kq K) (kp K) = 1 -> bits (m + kq K) <= ktl K -> 0 < TMCG_MAX_FPOWM_N ->
  ped_verify K c r [m + kq K] = ped_verify K c r [m].
Proof. exact ped_message_plus_q. Qed.
Print Assumptions C05_pedersen_message_range_refuted.

Theorem C05_skc_accept_iff : forall H K le c ms P,
  skc_verify H K le c ms P = Accept <->
  length (s_f P) = length ms /\ S (length (s_fD P)) = length ms /\
  test_membership K (s_cd P) = true /\ test_membership K (s_ca P) = true /\ test_membership K (s_cD P) = true /\
  0 <= s_z P < kq K /\ Forall (fun x => 0 <= x < kq K) (s_f P) /\
  0 <= s_zD P < kq K /\ Forall (fun x => 0 <= x < kq K) (s_fD P) /\
  let x := skc_x H K le ms in
  let e := skc_e H K le ms x P in
  exists ce cae einv,
    mpz_powm c e (kp K) = Some ce /\ ped_verify K ((ce * s_cd P) mod kp K) (s_z P) (s_f P) = Accept /\
    mpz_powm (s_ca P) e (kp K) = Some cae /\ ped_verify K ((cae * s_cD P) mod kp K) (s_zD P) (s_fD P ++ [0]) = Accept /\
    invm e (kq K) = Some einv /\
    (prod_rhs (kq K) x ms 1 * e) mod kq K = prod_lhs (kq K) ((e * x) mod kq K) einv (s_f P) (s_fD P) true 1.
Proof. exact skc_accept_iff. Qed.
Print Assumptions C05_skc_accept_iff.

Theorem C05_skc_range_rules : forall H K le c ms P, skc_verify H K le c ms P = Accept ->
  0 <= s_z P < kq K /\ Forall (fun x => 0 <= x < kq K) (s_f P) /\
  0 <= s_zD P < kq K /\ Forall (fun x => 0 <= x < kq K) (s_fD P).
Proof. exact skc_range_rules. Qed.
Print Assumptions C05_skc_range_rules.

Theorem C05_skc_member_rules : forall H K le c ms P, skc_verify H K le c ms P = Accept ->
  (0 < s_cd P < kp K /\ powm (s_cd P) (kq K) (kp K) = 1) /\
  (0 < s_ca P < kp K /\ powm (s_ca P) (kq K) (kp K) = 1) /\
  (0 < s_cD P < kp K /\ powm (s_cD P) (kq K) (kp K) = 1).
Proof. exact skc_member_rules. Qed.
Print Assumptions C05_skc_member_rules.

(* the response z is bound as an exact value: no second z verifies with the same commitments *)
Theorem C05_skc_z_bound : forall H K le c ms P z',
  prime (kp K) -> prime (kq K) -> powm (kh K) (kq K) (kp K) = 1 -> kh K mod kp K <> 1 -> bits (kq K) <= TMCG_MAX_FPOWM_T ->
  skc_verify H K le c ms P = Accept ->
  skc_verify H K le c ms (mk_skc (s_cd P) (s_cD P) (s_ca P) (s_f P) z' (s_fD P) (s_zD P)) = Accept -> z' = s_z P.
Proof. exact skc_z_bound. Qed.
Print Assumptions C05_skc_z_bound.

Theorem C05_skc_z_shifted_rejected : forall H K le c ms P k, 0 < kq K -> k <> 0 -> 0 <= s_z P < kq K ->
  skc_verify H K le c ms (mk_skc (s_cd P) (s_cD P) (s_ca P) (s_f P) (s_z P + k * kq K) (s_fD P) (s_zD P)) <> Accept.
Proof. exact skc_z_shifted_rejected. Qed.
Print Assumptions C05_skc_z_shifted_rejected.

(* witnesses: p = 23, q = 11, g = 2, h = 3 *)
Definition G23 : grp := mk_grp 23 11 2 3 2 3 256.
Definition H23 : list Z -> Z := table_hash [([23; 11; 2; 8; 9], 6)].
Example C05_nonvacuous_key_accept : key_verify H23 G23 8 6 9 = Accept.
Proof. vm_compute. reflexivity. Qed.
Example C05_nonvacuous_key_mutant_rejected : key_verify H23 G23 8 6 10 = Reject /\ key_verify H23 G23 8 6 (9 + 11) = Reject /\ key_verify H23 G23 8 6 (9 - 11) = Accept.
Proof. vm_compute. repeat split; reflexivity. Qed.
Example C05_nonvacuous_group : 1 < gp G23 /\ prime (gq G23) /\ powm (gg G23) (gq G23) (gp G23) = 1 /\ gg G23 mod gp G23 <> 1.
Proof.
  split; [cbn; lia|]. split; [|split; [vm_compute; reflexivity|vm_compute; congruence]].
  cbn. apply prime_intro; [lia|]. intros n Hn.
  assert (n = 1 \/ n = 2 \/ n = 3 \/ n = 4 \/ n = 5 \/ n = 6 \/ n = 7 \/ n = 8 \/ n = 9 \/ n = 10) as C by lia.
  destruct C as [->|[->|[->|[->|[->|[->|[->|[->|[->| ->]]]]]]]]]; apply Zgcd_1_rel_prime; reflexivity.
Qed.
Example C05_nonvacuous_keyint : keyint_verify G23 8 9 1 8 = Accept /\ keyint_verify G23 8 9 1 (-8) = Reject /\
  keyint_verify G23 8 9 1 (8 - 11) = Accept /\ keyint_verify G23 (23 - 8) 9 2 5 = Reject /\ bits (gq G23) <= TMCG_MAX_FPOWM_T.
Proof. vm_compute. repeat split; congruence. Qed.
Example C05_nonvacuous_or : or_verify (fun _ => 7) G23 4 9 2 3 3 4 5 6 = Accept /\ or_verify (fun _ => 7) G23 4 9 2 3 (3 + 11) 4 5 6 = Reject.
Proof. vm_compute. split; reflexivity. Qed.

(* Pedersen: one generator g = 2 of order 11 modulo 23, h = 3; 2^5 * 3^4 = 32 * 81 = 2592 = 16 (mod 23) *)
Definition K23 : pkey := mk_pkey 23 11 3 [2].
Example C05_nonvacuous_ped : ped_verify K23 16 4 [5] = Accept /\ ped_verify K23 16 (4 - 11) [5] = Reject /\
  ped_verify K23 16 4 [5 + 11] = Reject /\ ped_verify (mk_pkey 23 11 3 [2]) 16 4 [1 + 11] = ped_verify K23 16 4 [1].
Proof. vm_compute. repeat split; reflexivity. Qed.

(* non-vacuity: a proof made by GrothSKC::Prove_noninteractive for a 128/64-bit commitment key (record of the harness),
   accepted by the model with the logged hash oracle; the same proof with z + q is refused *)
Definition Kex : pkey := mk_pkey 302916002200284782502554726193907539953 17084552515577904043 126245851261019830363192692450603277685 [226634704922142527756371474700428482976; 237906121319774078168410767651394123632; 255014836776580823509221323484533008121].
Definition Hex : list Z -> Z := table_hash [([226634704922142527756371474700428482976; 237906121319774078168410767651394123632; 255014836776580823509221323484533008121; 13339997612621731408; 13905673840040254954; 13002963652922272783; 302916002200284782502554726193907539953; 17084552515577904043; 126245851261019830363192692450603277685], 108278089586679642549613370307261683309019008659833183695186269152254624772034); ([226634704922142527756371474700428482976; 237906121319774078168410767651394123632; 255014836776580823509221323484533008121; 13339997612621731408; 13905673840040254954; 13002963652922272783; 1903144898; 229278802278434982938895642933652113402; 15296960207150666273681383615283150012; 152208915448259559908949887770140986040], 25939981182054364156392843465971687103698328476424177936545056879261190482646)].
Definition Pex : skc_proof := mk_skc 229278802278434982938895642933652113402 15296960207150666273681383615283150012 152208915448259559908949887770140986040 [6168690600214489515; 7801210722337845212; 2915728748878536366] 1438154580988781284 [2614924089242855529; 15326065337876127063] 4091267996460408482.
Example C05_nonvacuous_skc_accept : skc_verify Hex Kex 32 77563117293965163431295713505159591073 [13339997612621731408; 13905673840040254954; 13002963652922272783] Pex = Accept.
Proof. vm_compute. reflexivity. Qed.
Example C05_nonvacuous_skc_shifted : skc_verify Hex Kex 32 77563117293965163431295713505159591073 [13339997612621731408; 13905673840040254954; 13002963652922272783] (mk_skc (s_cd Pex) (s_cD Pex) (s_ca Pex) (s_f Pex) (s_z Pex + kq Kex) (s_fD Pex) (s_zD Pex)) = Reject.
Proof. apply skc_z_out_of_range. reflexivity. Qed.
