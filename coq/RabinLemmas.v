(* RabinLemmas: proofs about RabinModel (C10). *)
From Coq Require Import ZArith NArith List Bool Lia ZifyBool.
From LT Require Import ListFacts gen_Consts CodecModel CodecLemmas Zbase RabinModel.
Import ListNotations.

Definition byte (b : N) : Prop := (b < 256)%N.

Section Bytes.
Local Open Scope N_scope.

Lemma be2n_snoc l x : be2n (l ++ [x]) = be2n l * 256 + x.
Proof. apply (fold_dstep_snoc 256). Qed.

Lemma n2be_length k : forall n, length (n2be k n) = k.
Proof. induction k; intros; cbn [n2be]; [reflexivity|]. rewrite app_length, IHk. cbn. lia. Qed.

Lemma be2n_n2be k : forall n, be2n (n2be k n) = n mod 256 ^ N.of_nat k.
Proof.
  induction k; intros n.
  - cbn. rewrite N.mod_1_r. reflexivity.
  - cbn [n2be]. rewrite be2n_snoc, IHk, Nat2N.inj_succ, N.pow_succ_r'.
    rewrite (N.mod_mul_r n 256 (256 ^ N.of_nat k)) by (try apply N.pow_nonzero; lia). lia.
Qed.

Lemma n2be_be2n bs : Forall byte bs -> n2be (length bs) (be2n bs) = bs.
Proof.
  induction bs as [|x l IH] using rev_ind; intros F; [reflexivity|].
  apply Forall_app in F. destruct F as [Fl Fx]. inversion Fx; subst. unfold byte in *.
  rewrite last_length. cbn [n2be]. rewrite be2n_snoc.
  rewrite N.div_add_l by lia. rewrite (N.div_small x 256) by lia. rewrite N.add_0_r, IH by assumption.
  f_equal. f_equal. rewrite N.add_comm, N.mod_add by lia. apply N.mod_small. assumption.
Qed.

Lemma be2n_bound bs : Forall byte bs -> be2n bs < 256 ^ N.of_nat (length bs).
Proof. intros F. pose proof (fold_dstep_range 256 bs ltac:(lia) F 0) as [_ U]. now rewrite N.mul_1_l in U. Qed.

Lemma be2n_zero bs : be2n bs = 0 -> Forall (fun b => b = 0) bs.
Proof.
  induction bs as [|x l IH] using rev_ind; intros E; [constructor|].
  rewrite be2n_snoc in E. apply Forall_app. split; [apply IH; lia|]. constructor; [lia|constructor].
Qed.

Lemma n2be_byte k : forall n, Forall byte (n2be k n).
Proof.
  induction k; intros; cbn [n2be]; [constructor|]. apply Forall_app. split; [apply IHk|].
  constructor; [|constructor]. unfold byte. apply N.mod_lt. lia.
Qed.

Lemma lxor_byte a b : byte a -> byte b -> byte (N.lxor a b).
Proof.
  unfold byte. intros Ha Hb. apply N.log2_lt_cancel.
  pose proof (N.log2_lxor a b). pose proof (N.log2_le_mono a 255). pose proof (N.log2_le_mono b 255).
  change (N.log2 256) with 8. change (N.log2 255) with 7 in *. lia.
Qed.
End Bytes.

Lemma bxor_length a b : length (bxor a b) = Nat.min (length a) (length b).
Proof. unfold bxor. rewrite map_length, combine_length. reflexivity. Qed.

Lemma bxor_byte a b : Forall byte a -> Forall byte b -> Forall byte (bxor a b).
Proof.
  revert b. induction a as [|x a IH]; intros b Fa Fb; [constructor|].
  destruct b as [|y b]; [constructor|]. inversion Fa; inversion Fb; subst.
  unfold bxor. cbn. constructor; [apply lxor_byte; assumption|apply IH; assumption].
Qed.

Lemma bxor_invol a k : length a = length k -> bxor (bxor a k) k = a.
Proof.
  revert k. induction a as [|x a IH]; intros [|y k] L; try discriminate; [reflexivity|].
  unfold bxor in *. cbn in *. f_equal; [|apply IH; lia].
  rewrite N.lxor_assoc, N.lxor_nilpotent, N.lxor_0_r. reflexivity.
Qed.

Lemma zeros_byte n : Forall byte (zeros n).
Proof. unfold zeros. induction n; cbn; constructor; [unfold byte; lia|assumption]. Qed.
Lemma zeros_length n : length (zeros n) = n.
Proof. apply repeat_length. Qed.

Lemma sizeinbase2_le v k : (0 < v)%Z -> (0 <= k)%Z -> (sizeinbase2 v <= k)%Z <-> (v < 2 ^ k)%Z.
Proof.
  intros Hv Hk. unfold sizeinbase2. destruct (Z.eqb_spec v 0); [lia|]. rewrite Z.abs_eq by lia.
  pose proof (Z.log2_lt_pow2 v k Hv) as P. lia.
Qed.

Lemma sizeinbase2_pos v : (1 <= sizeinbase2 v)%Z.
Proof. unfold sizeinbase2. destruct (Z.eqb_spec v 0); [lia|]. pose proof (Z.log2_nonneg (Z.abs v)). lia. Qed.

Lemma sizeinbase2_gt v k : (0 < k)%Z -> (k < sizeinbase2 v)%Z -> (2 ^ k <= Z.abs v)%Z.
Proof.
  intros Hk H. unfold sizeinbase2 in H. destruct (Z.eqb_spec v 0); [lia|].
  assert (0 < Z.abs v)%Z by lia. apply Z.log2_le_pow2; lia.
Qed.

Lemma sizeinbase2_between v lo hi : (0 <= lo)%Z -> (2 ^ lo <= v < 2 ^ hi)%Z -> (lo < sizeinbase2 v <= hi)%Z.
Proof.
  intros Hlo [L U]. assert (0 < v)%Z by (pose proof (Z.pow_pos_nonneg 2 lo); lia).
  unfold sizeinbase2. destruct (Z.eqb_spec v 0); [lia|]. rewrite Z.abs_eq by lia.
  apply Z.log2_le_pow2 in L; [|assumption]. apply Z.log2_lt_pow2 in U; [|assumption]. lia.
Qed.

Lemma pow256_lt n k : (n < 256 ^ N.of_nat k)%N <-> (Z.of_N n < 2 ^ (8 * Z.of_nat k))%Z.
Proof. rewrite N2Z.inj_lt, N2Z.inj_pow, nat_N_Z, Z.pow_mul_r by lia. reflexivity. Qed.

Lemma be2z_range yy : Forall byte yy -> (0 <= be2z yy < 2 ^ (8 * Z.of_nat (length yy)))%Z.
Proof. intros F. unfold be2z. split; [lia|]. now apply pow256_lt, be2n_bound. Qed.

Lemma export_bytes_word s v : v <> 0%Z -> (sizeinbase2 v <= 8 * Z.of_nat s)%Z ->
  export_bytes s v = n2be s (Z.to_N (Z.abs v)).
Proof.
  intros Hv Hb. pose proof (sizeinbase2_pos v). unfold export_bytes, export_count.
  destruct (Z.eqb_spec v 0); [contradiction|].
  replace ((sizeinbase2 v + 8 * Z.of_nat s - 1) / (8 * Z.of_nat s))%Z with 1%Z
    by (apply Z.div_unique with (r := (sizeinbase2 v - 1)%Z); lia).
  change (Z.to_nat 1) with 1%nat. cbn [seq flat_map]. now rewrite app_nil_r, Nat.mul_0_r, N.div_1_r.
Qed.

Lemma export_bytes_zero s : export_bytes s 0 = [].
Proof. reflexivity. Qed.

Lemma export_length s v : v <> 0%Z -> (sizeinbase2 v <= 8 * Z.of_nat s)%Z -> length (export_bytes s v) = s.
Proof. intros. rewrite export_bytes_word by assumption. apply n2be_length. Qed.

Lemma export_fits s v : (0 <= v)%Z -> (sizeinbase2 v <= 8 * Z.of_nat s)%Z -> (length (export_bytes s v) <= s)%nat.
Proof. intros _ Hb. destruct (Z.eq_dec v 0) as [->|NZ]; [cbn; lia|]. now rewrite export_length. Qed.

Lemma export_be2z s yy : length yy = s -> Forall byte yy -> be2z yy <> 0%Z -> export_bytes s (be2z yy) = yy.
Proof.
  intros <- F NZ. pose proof (be2z_range yy F) as R.
  rewrite export_bytes_word by (try apply sizeinbase2_le; lia).
  unfold be2z in *. rewrite Z.abs_eq, N2Z.id by lia. now apply n2be_be2n.
Qed.

(* tamper evidence at the level of the padded value: two accepted nonzero squares that leave the same bytes in the
   buffer are the same square -- a different square needs different (w, r*, gamma), hence new oracle answers *)
Theorem export_injective s a b : (0 < s)%nat -> (0 < a)%Z -> (0 < b)%Z ->
  (sizeinbase2 a <= 8 * Z.of_nat s)%Z -> (sizeinbase2 b <= 8 * Z.of_nat s)%Z ->
  export_bytes s a = export_bytes s b -> a = b.
Proof.
  intros Hs Ha Hb Sa Sb E. rewrite !export_bytes_word, !Z.abs_eq in E by lia.
  apply (f_equal be2n) in E.
  rewrite !be2n_n2be, !N.mod_small in E by (apply pow256_lt; rewrite Z2N.id by lia; apply sizeinbase2_le; lia).
  apply Z2N.inj in E; lia.
Qed.

Lemma fold_left_inv {A B} (P : A -> Prop) (Q : B -> Prop) (f : A -> B -> A) l :
  (forall a b, P a -> Q b -> P (f a b)) -> Forall Q l -> forall a, P a -> P (fold_left f l a).
Proof. intros Hf. induction l; intros F a0 Pa; cbn; [assumption|]. inversion F; subst. apply IHl; auto. Qed.

Section RabinProofs.
Variable H1 H2 : bytes -> bytes.
Hypothesis H1_len : forall x, length (H1 x) = md.
Hypothesis H2_len : forall x, length (H2 x) = md.
Hypothesis H1_byte : forall x, Forall byte (H1 x).
Hypothesis H2_byte : forall x, Forall byte (H2 x).

Definition byte_buf (L : nat) (b : bytes) : Prop := length b = L /\ Forall byte b.

Lemma splice_buf L b off d : byte_buf L b -> Forall byte d -> (off + length d <= L)%nat -> byte_buf L (splice b off d).
Proof.
  intros [Lb Bb] Bd H. unfold splice. split.
  - rewrite !app_length, firstn_length, skipn_length. lia.
  - apply Forall_app. split; [now apply Forall_firstn|]. apply Forall_app. split; [assumption|now apply Forall_skipn].
Qed.

Lemma tmcg_g_buf osize input : byte_buf osize (tmcg_g H1 H2 osize input).
Proof.
  unfold tmcg_g. set (times := (osize / usesize + 1)%nat). set (L := ((times + 1) * md)%nat).
  destruct (fold_left_inv (fun st => byte_buf L (fst st) /\ byte_buf L (snd st)) (fun i => (i < times)%nat)
              (g_step H1 H2 input) (seq 0 times)) with (a := (zeros L, zeros L)) as [[L1 B1] [L2 B2]].
  - intros st i [B1 B2] Hi. unfold g_step, L in *. cbn [fst snd].
    split; repeat apply splice_buf; auto; rewrite ?H1_len, ?H2_len; change usesize with 9%nat; change md with 32%nat; lia.
  - apply Forall_forall. intros i Hin. apply in_seq in Hin. lia.
  - cbn [fst snd]. unfold byte_buf. rewrite zeros_length. auto using zeros_byte.
  - split; [|now apply Forall_firstn, bxor_byte].
    rewrite firstn_length, bxor_length, L1, L2. unfold L, times. change usesize with 9%nat. change md with 32%nat.
    pose proof (Nat.div_mod osize 9). pose proof (Nat.mod_upper_bound osize 9). lia.
Qed.

Lemma tmcg_g_length osize input : length (tmcg_g H1 H2 osize input) = osize.
Proof. apply tmcg_g_buf. Qed.

Lemma tmcg_g_byte osize input : Forall byte (tmcg_g H1 H2 osize input).
Proof. apply tmcg_g_buf. Qed.

Lemma verify_core_square m heap data v v' :
  ((v * v) mod Z.abs m = (v' * v') mod Z.abs m)%Z ->
  verify_core H1 H2 m heap data v = verify_core H1 H2 m heap data v'.
Proof. intros E. unfold verify_core. rewrite E. reflexivity. Qed.

Lemma verify_core_neg m heap data v : verify_core H1 H2 m heap data (- v) = verify_core H1 H2 m heap data v.
Proof. apply verify_core_square. f_equal. lia. Qed.

Lemma verify_core_shift m heap data v k :
  verify_core H1 H2 m heap data (v + k * m) = verify_core H1 H2 m heap data v.
Proof.
  apply verify_core_square.
  replace ((v + k * m) * (v + k * m))%Z with (v * v + (2 * v * k + k * k * m) * Z.sgn m * Z.abs m)%Z.
  - apply Z_mod_plus_full.
  - rewrite <- Z.mul_assoc, (Z.mul_comm (Z.sgn m)), Z.abs_sgn. ring.
Qed.

Lemma verify_core_data m heap data data' v : (forall r, H1 (data ++ r) = H1 (data' ++ r)) ->
  verify_core H1 H2 m heap data v = verify_core H1 H2 m heap data' v.
Proof. intros E. unfold verify_core, prab_test. now rewrite E. Qed.

(* the size tests that come before the export; once they are passed the export is exactly one word of mnsize bytes, so
   the overflow branch is dead and the verdict is that of the padding test *)
Definition presentable (m v : Z) : Prop :=
  let mn := mnsize_of m in
  let foo := ((v * v) mod Z.abs m)%Z in
  (Z.of_nat mn * 8 < sizeinbase2 m)%Z /\ (md + K0 < mn)%nat /\ (sizeinbase2 foo <= Z.of_nat mn * 8)%Z /\ foo <> 0%Z.

Lemma verify_core_cases m data v :
  let mn := mnsize_of m in
  let written := export_bytes mn ((v * v) mod Z.abs m) in
  presentable m v /\ length written = mn /\
    (forall heap, verify_core H1 H2 m heap data v = if prab_test H1 H2 mn data (buffer_after heap written) then Accept else Reject)
  \/ ~ presentable m v /\ forall heap, verify_core H1 H2 m heap data v = Reject.
Proof.
  unfold presentable, verify_core. cbv zeta.
  destruct (Z.leb_spec (sizeinbase2 m) (Z.of_nat (mnsize_of m) * 8)); [right; split; [lia|reflexivity]|].
  destruct (Nat.leb_spec (mnsize_of m) (md + K0)); [right; split; [lia|reflexivity]|].
  destruct (Z.gtb_spec (sizeinbase2 ((v * v) mod Z.abs m)) (Z.of_nat (mnsize_of m) * 8)); cbn [orb];
    [right; split; [lia|reflexivity]|].
  destruct (Z.eqb_spec ((v * v) mod Z.abs m) 0); [right; split; [tauto|reflexivity]|].
  left. assert (L : length (export_bytes (mnsize_of m) ((v * v) mod Z.abs m)) = mnsize_of m) by (apply export_length; lia).
  repeat split; try assumption; try lia. intros heap. rewrite L.
  destruct (Nat.ltb_spec (mnsize_of m + slack) (mnsize_of m)); [lia|reflexivity].
Qed.

Theorem verify_core_no_overflow m heap data v : verify_core H1 H2 m heap data v <> Overflow.
Proof.
  destruct (verify_core_cases m data v) as [(_ & _ & E)|[_ E]]; rewrite E; [destruct (prab_test _ _ _ _ _)|]; discriminate.
Qed.

(* the acceptance condition, spelled out *)
Definition verify_accepts (m : Z) (heap data : bytes) (v : Z) : Prop :=
  let mn := mnsize_of m in
  let foo := ((v * v) mod Z.abs m)%Z in
  (Z.of_nat mn * 8 < sizeinbase2 m)%Z /\ (md + K0 < mn)%nat /\ (sizeinbase2 foo <= Z.of_nat mn * 8)%Z /\ foo <> 0%Z /\
  let yy := buffer_after heap (export_bytes mn foo) in
  let w := firstn md yy in
  let g12 := tmcg_g H1 H2 (mn - md) w in
  w = firstn md (H1 (data ++ bxor (firstn K0 (skipn md yy)) (firstn K0 g12))) /\
  firstn (mn - md - K0) (skipn (md + K0) yy) = firstn (mn - md - K0) (skipn K0 g12).

Theorem verify_core_accept_iff m heap data v :
  verify_core H1 H2 m heap data v = Accept <-> verify_accepts m heap data v.
Proof.
  unfold verify_accepts. cbv zeta.
  destruct (verify_core_cases m data v) as [(P & _ & E)|[NP E]]; rewrite E; unfold presentable in *; cbv zeta in *.
  - unfold prab_test. cbv zeta. rewrite <- !bytes_eqb_eq.
    destruct (bytes_eqb _ _), (bytes_eqb _ _); cbn [andb]; intuition discriminate.
  - split; [discriminate|tauto].
Qed.

(* fix 5f58cf8: a value whose square is zero (0, m, any multiple of a root of zero) is refused before the export, so the
   uninitialised buffer is never read *)
Theorem verify_core_zero_square m heap data v :
  ((v * v) mod Z.abs m = 0)%Z -> verify_core H1 H2 m heap data v = Reject.
Proof.
  intros E. destruct (verify_core_cases m data v) as [((_ & _ & _ & N) & _)|[_ R]]; [contradiction|apply R].
Qed.

Lemma prab_test_parts mn data w r' gam rest :
  length w = md -> length r' = K0 -> length gam = (mn - md - K0)%nat ->
  prab_test H1 H2 mn data (w ++ r' ++ gam ++ rest) =
  bytes_eqb w (firstn md (H1 (data ++ bxor r' (firstn K0 (tmcg_g H1 H2 (mn - md) w))))) &&
  bytes_eqb gam (firstn (mn - md - K0) (skipn K0 (tmcg_g H1 H2 (mn - md) w))).
Proof.
  intros Lw Lr Lg. unfold prab_test.
  rewrite (firstn_app_exact md w _ Lw), (skipn_app_exact md w _ Lw), (firstn_app_exact K0 r' _ Lr).
  replace (w ++ r' ++ gam ++ rest) with ((w ++ r') ++ gam ++ rest) by (rewrite <- app_assoc; reflexivity).
  rewrite (skipn_app_exact (md + K0) (w ++ r') _) by (rewrite app_length; lia).
  rewrite (firstn_app_exact _ gam _ Lg). reflexivity.
Qed.

Definition prab_bytes (m : Z) (data r : bytes) : bytes :=
  let mn := mnsize_of m in
  let w := firstn md (H1 (data ++ r)) in
  let g12 := tmcg_g H1 H2 (mn - md) w in
  w ++ bxor r (firstn K0 g12) ++ firstn (mn - md - K0) (skipn K0 g12).

Lemma sign_pad_bytes m data r : sign_pad H1 H2 m data r = be2z (prab_bytes m data r).
Proof. reflexivity. Qed.

Lemma prab_bytes_props m data r rest : length r = K0 -> Forall byte r -> (md + K0 < mnsize_of m)%nat ->
  length (prab_bytes m data r) = mnsize_of m /\ Forall byte (prab_bytes m data r) /\
  prab_test H1 H2 (mnsize_of m) data (prab_bytes m data r ++ rest) = true.
Proof.
  intros Lr Br Hmn. unfold prab_bytes. cbv zeta.
  set (w := firstn md (H1 (data ++ r))). set (g12 := tmcg_g H1 H2 (mnsize_of m - md) w).
  assert (Lw : length w = md) by (unfold w; rewrite firstn_length, H1_len; lia).
  assert (Lg : length g12 = (mnsize_of m - md)%nat) by apply tmcg_g_length.
  assert (Bw : Forall byte w) by apply Forall_firstn, H1_byte.
  assert (Bg : Forall byte g12) by apply tmcg_g_byte.
  assert (Lx : length (bxor r (firstn K0 g12)) = K0) by (rewrite bxor_length, firstn_length; lia).
  assert (Lt : length (firstn (mnsize_of m - md - K0) (skipn K0 g12)) = (mnsize_of m - md - K0)%nat)
    by (rewrite firstn_length, skipn_length; lia).
  repeat split.
  - rewrite !app_length, Lw, Lx, Lt. lia.
  - repeat (apply Forall_app; split); auto using Forall_firstn, Forall_skipn, bxor_byte.
  - rewrite <- !app_assoc, prab_test_parts by assumption. fold g12.
    rewrite bxor_invol by (rewrite firstn_length; lia). fold w. now rewrite !bytes_eqb_refl.
Qed.

Lemma sign_pad_range m data r : length r = K0 -> Forall byte r -> (md + K0 < mnsize_of m)%nat ->
  (0 <= sign_pad H1 H2 m data r < 2 ^ (8 * Z.of_nat (mnsize_of m)))%Z.
Proof.
  intros Lr Br Hmn. destruct (prab_bytes_props m data r [] Lr Br Hmn) as (L & B & _).
  rewrite sign_pad_bytes, <- L. now apply be2z_range.
Qed.

(* a padded value is below 2^(8 mnsize) <= |m|: taking its square root and squaring again gives it back *)
Theorem verify_core_padded m heap data r s :
  (Z.of_nat (mnsize_of m) * 8 < sizeinbase2 m)%Z -> (md + K0 < mnsize_of m)%nat ->
  length r = K0 -> Forall byte r ->
  sign_pad H1 H2 m data r <> 0%Z ->
  ((s * s) mod Z.abs m = sign_pad H1 H2 m data r mod Z.abs m)%Z ->
  verify_core H1 H2 m heap data s = Accept.
Proof.
  intros Hbits Hmn Lr Br NZ Hs.
  pose proof (sign_pad_range m data r Lr Br Hmn) as R.
  assert (ML : (2 ^ (8 * Z.of_nat (mnsize_of m)) <= Z.abs m)%Z) by (apply sizeinbase2_gt; lia).
  rewrite (Z.mod_small (sign_pad H1 H2 m data r)) in Hs by lia.
  destruct (verify_core_cases m data s) as [(_ & _ & E)|[NP _]].
  - rewrite E, Hs, sign_pad_bytes in *. clear E.
    destruct (prab_bytes_props m data r (skipn (mnsize_of m) heap) Lr Br Hmn) as (L & B & T).
    unfold buffer_after. now rewrite (export_be2z _ _ L), L, T.
  - exfalso. apply NP. unfold presentable. cbv zeta. rewrite Hs, Z.mul_comm. repeat split; try assumption; try lia.
    apply sizeinbase2_le; lia.
Qed.

(* the verdict does not depend on what the uninitialised buffer held *)
Lemma prab_test_rest mn data l rest rest' : length l = mn -> (md + K0 < mn)%nat ->
  prab_test H1 H2 mn data (l ++ rest) = prab_test H1 H2 mn data (l ++ rest').
Proof.
  intros L Hm.
  assert (D : l = firstn md l ++ firstn K0 (skipn md l) ++ skipn K0 (skipn md l)).
  { rewrite (firstn_skipn K0 (skipn md l)). symmetry. apply firstn_skipn. }
  rewrite D, <- !app_assoc.
  rewrite !prab_test_parts; try reflexivity;
    rewrite ?firstn_length, ?skipn_length, ?firstn_length, ?skipn_length; lia.
Qed.

Theorem verify_core_heap_irrelevant m heap heap' data v :
  verify_core H1 H2 m heap data v = verify_core H1 H2 m heap' data v.
Proof.
  destruct (verify_core_cases m data v) as [((_ & Hm & _) & L & E)|[_ E]]; rewrite !E; [|reflexivity].
  unfold buffer_after. rewrite L. now rewrite (prab_test_rest _ data _ _ (skipn (mnsize_of m) heap') L).
Qed.

Lemma field62 z r : split_at bar (encode62 z ++ bar :: r) = Some (encode62 z, r).
Proof. apply split_at_app, encode62_nobar. Qed.

Lemma framed_parse magic kid z :
  forallb (fun c => negb (c =? bar)%N) magic = true -> Forall (fun c => c <> bar) kid ->
  cm (magic ++ [bar] ++ kid ++ [bar] ++ encode62 z ++ [bar]) magic bar = Some (kid ++ [bar] ++ encode62 z ++ [bar]) /\
  split_at bar (kid ++ [bar] ++ encode62 z ++ [bar]) = Some (kid, encode62 z ++ [bar]) /\
  split_at bar (encode62 z ++ [bar]) = Some (encode62 z, []).
Proof.
  intros Fm Fk. repeat split; [apply (cm_magic magic bar _ Fm)|apply (split_at_app bar kid _ Fk)|apply field62].
Qed.

Lemma verify_text_sig_text m ksig heap data kid s :
  Forall (fun c => c <> bar) kid -> kid_matches ksig kid = true ->
  verify_text H1 H2 m ksig heap data (sig_text kid s) = verify_core H1 H2 m heap data s.
Proof.
  intros Fk KM. destruct (framed_parse str_sig kid s eq_refl Fk) as (P1 & P2 & P3).
  unfold verify_text, sig_text. rewrite P1, P2, KM. cbn [negb]. rewrite P3, base62_roundtrip. reflexivity.
Qed.

Theorem verify_text_accept_implies m ksig heap data t :
  verify_text H1 H2 m ksig heap data t = Accept ->
  exists s1 kid s2 vs rest v,
    cm t str_sig bar = Some s1 /\ split_at bar s1 = Some (kid, s2) /\ kid_matches ksig kid = true /\
    split_at bar s2 = Some (vs, rest) /\ decode62 vs = Some v /\ verify_core H1 H2 m heap data v = Accept.
Proof.
  unfold verify_text. intros E.
  destruct (cm t str_sig bar) as [s1|] eqn:E1; [|discriminate].
  destruct (split_at bar s1) as [[kid s2]|] eqn:E2; [|discriminate].
  destruct (kid_matches ksig kid) eqn:KM; cbn [negb] in E; [|discriminate].
  destruct (split_at bar s2) as [[vs rest]|] eqn:E3; [|discriminate].
  destruct (decode62 vs) as [v|] eqn:E4; [|discriminate].
  exists s1, kid, s2, vs, rest, v. repeat split; auto.
Qed.

Variable qr : Z -> bool.
Variable roots : Z -> list Z.

Definition roots_sound (m : Z) : Prop := forall a s, In s (roots a) -> ((s * s) mod Z.abs m = a mod Z.abs m)%Z.
(* makes every padded value nonzero (its first md bytes are a digest); needed because verify refuses a zero square *)
Definition digest_nonzero : Prop := forall x, ~ Forall (fun b => b = 0%N) (firstn md (H1 x)).
Definition kid_ok (ksig : bytes) : Prop :=
  let kid := keyid (Z.to_N TMCG_KEYID_SIZE) ksig in Forall (fun c => c <> bar) kid /\ kid_matches ksig kid = true.

Lemma sign_pad_nonzero m data r : digest_nonzero -> sign_pad H1 H2 m data r <> 0%Z.
Proof.
  intros NZ E. rewrite sign_pad_bytes in E. unfold be2z in E.
  assert (Z0 : be2n (prab_bytes m data r) = 0%N) by lia.
  apply be2n_zero in Z0. unfold prab_bytes in Z0. cbv zeta in Z0. apply Forall_app in Z0. destruct Z0 as [Zw _].
  exact (NZ _ Zw).
Qed.

Lemma sign_loop_some fuel m data : forall stream foo, Forall byte stream ->
  sign_loop H1 H2 qr fuel m data stream = Some foo ->
  exists r, length r = K0 /\ Forall byte r /\ foo = sign_pad H1 H2 m data r.
Proof.
  induction fuel; intros stream foo Bs E; cbn [sign_loop] in E; [discriminate|].
  destruct (Nat.ltb_spec (length stream) K0); [discriminate|].
  destruct (qr (sign_pad H1 H2 m data (firstn K0 stream))).
  - inversion E; subst. exists (firstn K0 stream). repeat split; [rewrite firstn_length; lia|now apply Forall_firstn].
  - apply (IHfuel (skipn K0 stream)); [now apply Forall_skipn|exact E].
Qed.

(* all four roots verify, and so do the negated root and any representative modulo m *)
Theorem roots_all_verify m heap data r s :
  roots_sound m -> digest_nonzero ->
  (Z.of_nat (mnsize_of m) * 8 < sizeinbase2 m)%Z -> (md + K0 < mnsize_of m)%nat -> length r = K0 -> Forall byte r ->
  In s (roots (sign_pad H1 H2 m data r)) ->
  verify_core H1 H2 m heap data s = Accept /\ verify_core H1 H2 m heap data (- s) = Accept /\
  forall k, verify_core H1 H2 m heap data (s + k * m) = Accept.
Proof.
  intros RS NZ Hb Hm Lr Br Hin.
  assert (A : verify_core H1 H2 m heap data s = Accept).
  { apply (verify_core_padded m heap data r s); auto. apply sign_pad_nonzero; assumption. }
  repeat split; [assumption|rewrite verify_core_neg; assumption|intros k; rewrite verify_core_shift; assumption].
Qed.

Theorem sign_verify_ok m ksig data stream idx t :
  roots_sound m -> digest_nonzero -> kid_ok ksig -> Forall byte stream ->
  sign_text H1 H2 qr roots m ksig data stream idx = Some t ->
  forall heap, verify_text H1 H2 m ksig heap data t = Accept.
Proof.
  intros RS NZ [Fk KM] Bs E heap. unfold sign_text in E.
  destruct (Z.leb_spec (sizeinbase2 m) (Z.of_nat (mnsize_of m) * 8)); [discriminate|].
  destruct (Nat.leb_spec (mnsize_of m) (md + K0)); [discriminate|].
  destruct (sign_loop H1 H2 qr (S (length stream)) m data stream) as [foo|] eqn:L; [|discriminate].
  destruct (nth_error (roots foo) idx) as [s|] eqn:N; [|discriminate].
  inversion E; subst t. clear E.
  rewrite verify_text_sig_text by assumption.
  destruct (sign_loop_some _ _ _ _ _ Bs L) as (r & Lr & Br & ->).
  apply nth_error_In in N. now apply (roots_all_verify m heap data r s).
Qed.

Definition saep_open (s : nat) (yy : bytes) : option bytes :=
  let s2 := (2 * S0)%nat in
  let r := firstn (s - s2) (skipn s2 yy) in
  let Mt := bxor (firstn s2 yy) (tmcg_g H1 H2 s2 r) in
  if all_zero (firstn S0 (skipn S0 Mt)) then Some (firstn S0 Mt) else None.

(* one root: skipped if longer than a word, otherwise exported (never beyond the buffer) and opened *)
Lemma try_roots_cons s heap root rest :
  try_roots H1 H2 s heap (root :: rest) =
  if (sizeinbase2 root <=? Z.of_nat s * 8)%Z then
    match saep_open s (buffer_after heap (export_bytes s root)) with
    | Some v => DecValue v
    | None => try_roots H1 H2 s (buffer_after heap (export_bytes s root)) rest
    end
  else try_roots H1 H2 s heap rest.
Proof.
  cbn [try_roots]. destruct (Z.leb_spec (sizeinbase2 root) (Z.of_nat s * 8)); [|reflexivity].
  assert (length (export_bytes s root) <= s)%nat.
  { destruct (Z.eq_dec root 0) as [->|NZ]; [cbn; lia|]. rewrite export_length; lia. }
  destruct (Nat.ltb_spec (s + slack) (length (export_bytes s root))); [lia|].
  unfold saep_open. cbv zeta. now destruct (all_zero _).
Qed.

Definition saep_bytes (m : Z) (value coins : bytes) : bytes :=
  let s2 := (2 * S0)%nat in
  let r := firstn (mnsize_of m - s2) coins in
  bxor (firstn S0 value ++ zeros S0) (tmcg_g H1 H2 s2 r) ++ r.

Lemma saep_pad_bytes m value coins : saep_pad H1 H2 m value coins = be2z (saep_bytes m value coins).
Proof. reflexivity. Qed.

Lemma all_zero_zeros n : all_zero (zeros n) = true.
Proof. unfold all_zero, zeros. induction n; cbn; auto. Qed.

Lemma saep_sizes m : saep_sizes_ok m = true -> (2 * S0 < mnsize_of m - 2 * S0)%nat /\ (2 * S0 + 1 < mnsize_of m)%nat.
Proof.
  unfold saep_sizes_ok, mnsize_of. change S0 with 20%nat. intros H.
  apply andb_prop in H. destruct H as [H _]. apply andb_prop in H. destruct H as [_ H]. lia.
Qed.

Lemma saep_bytes_props m value coins :
  saep_sizes_ok m = true -> length value = S0 -> Forall byte value ->
  (mnsize_of m - 2 * S0 <= length coins)%nat -> Forall byte coins ->
  length (saep_bytes m value coins) = mnsize_of m /\ Forall byte (saep_bytes m value coins) /\
  forall rest, saep_open (mnsize_of m) (saep_bytes m value coins ++ rest) = Some value.
Proof.
  intros OK Lv Bv Lc Bc. destruct (saep_sizes m OK) as [Z1 Z2].
  unfold saep_bytes. cbv zeta. rewrite (firstn_all2 value) by lia.
  set (r := firstn (mnsize_of m - 2 * S0) coins).
  set (Mt := value ++ zeros S0).
  assert (Lr : length r = (mnsize_of m - 2 * S0)%nat) by (unfold r; rewrite firstn_length; lia).
  assert (LM : length Mt = (2 * S0)%nat) by (unfold Mt; rewrite app_length, zeros_length; lia).
  assert (Lx : length (bxor Mt (tmcg_g H1 H2 (2 * S0) r)) = (2 * S0)%nat) by (rewrite bxor_length, tmcg_g_length; lia).
  repeat split.
  - rewrite app_length, Lx, Lr. lia.
  - apply Forall_app. split; [apply bxor_byte; [|apply tmcg_g_byte]|now apply Forall_firstn].
    apply Forall_app. split; [assumption|apply zeros_byte].
  - intros rest. unfold saep_open. cbv zeta. rewrite <- app_assoc.
    rewrite (firstn_app_exact _ _ _ Lx), (skipn_app_exact _ _ _ Lx), (firstn_app_exact _ _ _ Lr).
    rewrite bxor_invol by now rewrite tmcg_g_length. unfold Mt.
    rewrite (skipn_app_exact S0 value _ Lv), (firstn_app_exact S0 value _ Lv), firstn_all2 by (rewrite zeros_length; lia).
    now rewrite all_zero_zeros.
Qed.

(* roots that are not the encrypted value: refused by the redundancy test, whatever the buffer held *)
Definition spurious_free (s : nat) (rho : Z) : Prop :=
  (0 < rho)%Z /\ forall heap, saep_open s (buffer_after heap (export_bytes s rho)) = None.

Lemma try_roots_prefix s yy value : length yy = s -> Forall byte yy -> be2z yy <> 0%Z ->
  (forall tl, saep_open s (yy ++ tl) = Some value) ->
  forall pre post heap, Forall (spurious_free s) pre ->
  try_roots H1 H2 s heap (pre ++ be2z yy :: post) = DecValue value.
Proof.
  intros Ly By NZ Op pre post heap F. revert heap.
  induction F as [|rho pre [_ SF] _ IH]; intros heap; cbn [app]; rewrite try_roots_cons.
  - pose proof (be2z_range yy By) as R. rewrite Ly, Z.mul_comm in R.
    rewrite (proj2 (Z.leb_le _ _)) by (apply sizeinbase2_le; lia).
    rewrite (export_be2z _ _ Ly) by assumption. unfold buffer_after. now rewrite Op.
  - rewrite SF. now destruct (_ <=? _)%Z.
Qed.

Lemma decrypt_text_enc_text m ksig heap kid v :
  saep_sizes_ok m = true -> Forall (fun c => c <> bar) kid -> kid_matches ksig kid = true ->
  decrypt_text H1 H2 qr roots m ksig heap (enc_text kid v) =
  if qr v then try_roots H1 H2 (mnsize_of m) heap (roots v) else DecReject.
Proof.
  intros OK Fk KM. destruct (framed_parse str_enc kid v eq_refl Fk) as (P1 & P2 & P3).
  unfold decrypt_text, enc_text. rewrite OK. cbn [negb]. rewrite P1, P2, KM. cbn [negb]. rewrite P3, base62_roundtrip. reflexivity.
Qed.

(* SAEP round trip, every modulus size that passes the padding-size tests *)
Theorem encrypt_decrypt_ok m ksig value coins t :
  kid_ok ksig ->
  length value = S0 -> Forall byte value -> (mnsize_of m - 2 * S0 <= length coins)%nat -> Forall byte coins ->
  encrypt_text H1 H2 m ksig value coins = Some t ->
  let x := saep_pad H1 H2 m value coins in
  let c := ((x * x) mod Z.abs m)%Z in
  x <> 0%Z -> qr c = true ->
  (exists pre post, roots c = pre ++ x :: post /\ Forall (spurious_free (mnsize_of m)) pre) ->
  forall heap, decrypt_text H1 H2 qr roots m ksig heap t = DecValue value.
Proof.
  intros [Fk KM] Lv Bv Lc Bc E x c NZ Q (pre & post & Rt & SF) heap.
  unfold encrypt_text in E. destruct (saep_sizes_ok m) eqn:OK; [|discriminate]. inversion E; subst t. clear E.
  fold x. fold c. rewrite decrypt_text_enc_text by assumption. rewrite Q, Rt.
  destruct (saep_bytes_props m value coins OK Lv Bv Lc Bc) as (Ly & By & Op).
  unfold x in *. rewrite saep_pad_bytes in *.
  apply try_roots_prefix; auto.
Qed.

(* decrypt never overruns its buffer (fix 288af9c), every size: only roots of at most 8*s bits are exported, i.e. at most one word *)
Theorem try_roots_no_overflow s : forall rs heap, try_roots H1 H2 s heap rs <> DecOverflow.
Proof.
  induction rs as [|root rest IH]; intros heap; [discriminate|]. rewrite try_roots_cons.
  destruct (_ <=? _)%Z; [|apply IH]. destruct (saep_open _ _); [discriminate|apply IH].
Qed.

Theorem decrypt_text_no_overflow m ksig heap t : decrypt_text H1 H2 qr roots m ksig heap t <> DecOverflow.
Proof.
  unfold decrypt_text.
  destruct (negb _); [discriminate|]. destruct (cm _ _ _); [|discriminate]. destruct (split_at _ _) as [[? ?]|]; [|discriminate].
  destruct (negb _); [discriminate|]. destruct (split_at _ _) as [[? ?]|]; [|discriminate]. destruct (decode62 _); [|discriminate].
  destruct (qr _); [apply try_roots_no_overflow|discriminate].
Qed.

Variable jacobi : Z -> Z -> Z.
Variable is_prime : Z -> bool.

Lemma challenge_cond cond fuel m : forall input foo input',
  challenge H1 H2 cond fuel m input = Some (foo, input') -> cond foo = true.
Proof.
  induction fuel; intros input foo input' E; cbn [challenge] in E; [discriminate|].
  destruct (cond _) eqn:C.
  - inversion E; subst. exact C.
  - eapply IHfuel. exact E.
Qed.

Definition round_ok (cond : Z -> bool) (eqn : Z -> Z -> bool) (cr : Z * Z) : Prop :=
  cond (fst cr) = true /\ eqn (fst cr) (snd cr) = true.

Lemma stage_rounds_sound cond eqn fuel m rounds : forall s input tr s' input',
  stage_rounds H1 H2 cond eqn rounds fuel m s input = @Ok _ (tr, s', input') -> Forall (round_ok cond eqn) tr.
Proof.
  induction rounds; intros s input tr s' input' E; cbn [stage_rounds] in E.
  - inversion E; subst. constructor.
  - destruct (challenge H1 H2 cond fuel m input) as [[foo inp1]|] eqn:C; [|discriminate].
    destruct (split_at hat s) as [[vs s1]|]; [|discriminate].
    destruct (decode62 vs) as [resp|]; [|discriminate].
    destruct (eqn foo resp) eqn:Q; [|discriminate].
    destruct (stage_rounds H1 H2 cond eqn rounds fuel m s1 inp1) as [| |[[tr1 s2] inp2]] eqn:R; try discriminate.
    inversion E; subst. constructor; [|eapply IHrounds; exact R]. split; [eapply challenge_cond; exact C|exact Q].
Qed.

Definition stage_valid (minimum : Z) (cond : Z -> bool) (eqn : Z -> Z -> bool) : Prop :=
  exists (n : N) (tr : list (Z * Z)),
    (minimum <= Z.of_N n)%Z /\ N.of_nat (length tr) = n /\ Forall (round_ok cond eqn) tr.

Lemma run_stage_sound minimum cond eqn fuel m s input x :
  run_stage H1 H2 minimum cond eqn fuel m s input = @Ok _ x -> stage_valid minimum cond eqn.
Proof.
  unfold run_stage, stage_header. intros E.
  destruct (split_at hat s) as [[cs s1]|]; [|discriminate].
  destruct (strtoul_full cs) as [c|]; [|discriminate].
  destruct (N.eqb_spec c 0); [discriminate|].
  destruct (Z.ltb_spec (Z.of_N c) minimum); [discriminate|].
  destruct (stage_rounds H1 H2 cond eqn (rounds_of c s1) fuel m s1 input) as [| |[[tr1 s2] inp2]] eqn:R; try discriminate.
  destruct (N.eqb_spec (N.of_nat (length tr1)) c); [|discriminate].
  exists c, tr1. repeat split; [lia|assumption|eapply stage_rounds_sound; exact R].
Qed.

Definition nizk_valid (k : pubkey) : Prop :=
  let m := k_m k in
  (0 <= m)%Z /\
  stage_valid TMCG_KEY_NIZK_STAGE1 (cond_unit m) (eqn1 m) /\
  stage_valid TMCG_KEY_NIZK_STAGE2 (cond_unit m) (eqn2 m) /\
  stage_valid TMCG_KEY_NIZK_STAGE3 (cond_jac jacobi m) (eqn3 m (k_y k)).

Lemma nizk_check_sound fuel k : nizk_check H1 H2 jacobi fuel k = @Ok _ true -> nizk_valid k.
Proof.
  unfold nizk_check, nizk_valid. cbv zeta. intros E.
  destruct (Z.ltb_spec (k_m k) 0); [discriminate|].
  destruct (cm (k_nizk k) str_nzk hat) as [s0|]; [|discriminate].
  destruct (run_stage H1 H2 TMCG_KEY_NIZK_STAGE1 _ _ fuel (k_m k) s0 _) as [| |[[[n1 tr1] s1] i1]] eqn:R1; try discriminate.
  destruct (run_stage H1 H2 TMCG_KEY_NIZK_STAGE2 _ _ fuel (k_m k) s1 i1) as [| |[[[n2 tr2] s2] i2]] eqn:R2; try discriminate.
  destruct (run_stage H1 H2 TMCG_KEY_NIZK_STAGE3 _ _ fuel (k_m k) s2 i2) as [| |x3] eqn:R3; try discriminate.
  repeat split; [assumption|eapply run_stage_sound; eassumption..].
Qed.

Theorem check_accept_implies fuel heap k :
  check H1 H2 jacobi is_prime fuel heap k = @Ok _ true ->
  jacobi (k_y k) (k_m k) = 1%Z /\ Z.odd (k_m k) = true /\ is_prime (k_m k) = false /\
  verify_text H1 H2 (k_m k) (k_sig k) heap (selfsig_data k) (k_sig k) = Accept /\
  (contains str_NIZK (k_type k) = true -> nizk_valid k).
Proof.
  unfold check. cbv zeta. intros E.
  destruct (Z.eqb_spec (jacobi (k_y k) (k_m k)) 1); cbn [negb] in E; [|discriminate].
  destruct (Z.odd (k_m k)); cbn [negb] in E; [|discriminate].
  destruct (is_prime (k_m k)); [discriminate|].
  destruct (verify_text H1 H2 (k_m k) (k_sig k) heap (selfsig_data k) (k_sig k)); try discriminate.
  destruct (fermat_reject (k_m k)); [discriminate|].
  split; [assumption|]. split; [reflexivity|]. split; [reflexivity|]. split; [reflexivity|].
  intros C. rewrite C in E. cbn [negb] in E. eapply nizk_check_sound. exact E.
Qed.

Lemma congr_spec a b m : congr a b m = true <-> ((a - b) mod Z.abs m = 0)%Z.
Proof. unfold congr. apply Z.eqb_eq. Qed.
Lemma eqn1_spec m c r : eqn1 m c r = true <-> powm r m m = c.
Proof. unfold eqn1. apply Z.eqb_eq. Qed.
Lemma cond_unit_spec m c : cond_unit m c = true <-> Z.gcd c m = 1%Z.
Proof. unfold cond_unit. apply Z.eqb_eq. Qed.

(* the Fermat-number branch of check() can never be taken: m - 1 = 2^k with k = bit length of m is impossible *)
Lemma fermat_branch_dead m : (0 < m)%Z -> fermat_reject m = false.
Proof.
  intros Hm. unfold fermat_reject.
  destruct (Z.eqb_spec (m - 1) (2 ^ sizeinbase2 m)); [|reflexivity]. exfalso.
  unfold sizeinbase2 in e. destruct (Z.eqb_spec m 0); [lia|]. rewrite Z.abs_eq in e by lia.
  destruct (Z.log2_spec m Hm) as [_ U]. rewrite <- Z.add_1_r in U. lia.
Qed.
End RabinProofs.

Definition nobar (s : bytes) : Prop := Forall (fun c => c <> bar) s.

Theorem import_export_sec k p q : nobar (k_name k) -> nobar (k_email k) -> nobar (k_type k) -> nobar (k_nizk k) ->
  precompute_ok (k_m k) (k_y k) p q = true ->
  import_sec (export_sec k p q) = Some (k, p, q).
Proof.
  destruct k as [name email type m y nizk sg]. cbn [k_name k_email k_type k_m k_y k_nizk k_sig]. intros Fn Fe Ft Fz PC.
  unfold import_sec, export_sec. cbn [k_name k_email k_type k_m k_y k_nizk k_sig app].
  rewrite cm_magic by reflexivity.
  rewrite (split_at_app bar name _ Fn), (split_at_app bar email _ Fe), (split_at_app bar type _ Ft).
  do 4 rewrite field62, base62_roundtrip. rewrite (split_at_app bar nizk _ Fz), PC. reflexivity.
Qed.

Theorem import_export_pub k : nobar (k_name k) -> nobar (k_email k) -> nobar (k_type k) -> nobar (k_nizk k) ->
  import_pub (export_pub k) = Some k.
Proof.
  destruct k as [name email type m y nizk sg]. cbn [k_name k_email k_type k_m k_y k_nizk k_sig]. intros Fn Fe Ft Fz.
  unfold import_pub, export_pub. cbn [k_name k_email k_type k_m k_y k_nizk k_sig app].
  rewrite cm_magic by reflexivity.
  rewrite (split_at_app bar name _ Fn), (split_at_app bar email _ Fe), (split_at_app bar type _ Ft).
  do 2 rewrite field62, base62_roundtrip. rewrite (split_at_app bar nizk _ Fz). reflexivity.
Qed.
