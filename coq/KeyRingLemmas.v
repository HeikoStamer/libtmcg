(* KeyRingLemmas: proofs about KeyRingModel (C08; the key-share NIZK completeness is reused by C03). *)
From Coq Require Import ZArith Znumtheory Lia List Bool ZifyBool Permutation.
From LT Require Import Zbase gen_Consts SigmaPrim SigmaArith KeyRingModel.
Import ListNotations.
Local Open Scope Z_scope.

(* what the group check (CheckGroup) and the hash (output length hbits) guarantee; q need not be prime for
   the statements proved here *)
Record wf_params (H : list Z -> Z) (hbits : Z) (G : group) : Prop := mkWf {
  wf_p : 1 < gp G;
  wf_podd : Z.odd (gp G) = true;
  wf_q : 0 < gq G;
  wf_g : powm (gg G) (gq G) (gp G) = 1;
  wf_t : sizeinbase2 (gq G) <= TMCG_MAX_FPOWM_T;
  wf_hbits : 1 <= hbits;
  wf_H : forall l, 0 <= H l < 2 ^ hbits
}.

Lemma map_get_none_notin fp m : map_get fp m = None -> ~ In fp (map fst m).
Proof.
  induction m as [|[k v] m IH]; cbn [map_get map fst In]; [tauto|].
  destruct (Z.eqb_spec k fp); [discriminate|tauto].
Qed.

Lemma map_erase_notin fp m : ~ In fp (map fst m) -> map_erase fp m = m.
Proof.
  induction m as [|[k v] m IH]; [reflexivity|]. cbn [map fst In map_erase filter].
  destruct (Z.eqb_spec k fp); [tauto|]. intros N. cbn [negb]. f_equal. apply IH. tauto.
Qed.

Lemma map_erase_none fp m : map_get fp m = None -> map_erase fp m = m.
Proof. intros N. now apply map_erase_notin, map_get_none_notin. Qed.

Lemma map_get_erase_same fp m : map_get fp (map_erase fp m) = None.
Proof.
  induction m as [|[k v] m IH]; [reflexivity|]. cbn [map_erase filter fst].
  destruct (k =? fp) eqn:E; cbn [negb]; [exact IH|]. cbn [map_get]. rewrite E. exact IH.
Qed.

Lemma map_get_set_same fp v m : map_get fp (map_set fp v m) = Some v.
Proof. unfold map_set. cbn [map_get]. now rewrite Z.eqb_refl. Qed.

Lemma map_erase_set fp v m : map_erase fp (map_set fp v m) = map_erase fp m.
Proof.
  unfold map_set, map_erase at 1. cbn [filter fst]. rewrite Z.eqb_refl.
  apply map_erase_none, map_get_erase_same.
Qed.

Lemma prodl_cons x l : prodl (x :: l) = x * prodl l.
Proof. reflexivity. Qed.

Lemma prodl_app a b : prodl (a ++ b) = prodl a * prodl b.
Proof. induction a as [|x a IH]; cbn [app]; rewrite ?prodl_cons, ?IH; [symmetry; apply Z.mul_1_l|ring]. Qed.

Lemma prodl_perm l l' : Permutation l l' -> prodl l = prodl l'.
Proof. induction 1; rewrite ?prodl_cons; try congruence. ring. Qed.

(* a stored key splits the map into its entry and the map without it *)
Lemma map_erase_perm fp k : forall m, NoDup (map fst m) -> map_get fp m = Some k ->
  Permutation m ((fp, k) :: map_erase fp m).
Proof.
  induction m as [|[k' v] m IH]; cbn [map_get map fst]; [discriminate|]. intros ND E. inversion ND as [|? ? Nin ND']; subst.
  cbn [map_erase filter fst]. fold (map_erase fp m). destruct (Z.eqb_spec k' fp) as [->|_]; cbn [negb].
  - injection E as ->. now rewrite (map_erase_notin _ _ Nin).
  - exact (perm_trans (perm_skip _ (IH ND' E)) (perm_swap _ _ _)).
Qed.

Section Lemmas.
  Variable H : list Z -> Z.
  Variable hbits : Z.
  Variable G : group.
  Hypothesis WF : wf_params H hbits G.

  Let p := gp G.
  Let q := gq G.
  Let g := gg G.

  Let Hp : 1 < p := wf_p _ _ _ WF.
  Let Hq : 0 < q := wf_q _ _ _ WF.
  Let Hg : powm g q p = 1 := wf_g _ _ _ WF.
  Let Ht : sizeinbase2 q <= TMCG_MAX_FPOWM_T := wf_t _ _ _ WF.

  (* every hash value passes the verifiers' length test *)
  Lemma hash_size l : (hbits <? sizeinbase2 (H l)) = false.
  Proof. pose proof (sizeinbase2_bound (H l) hbits (wf_hbits _ _ _ WF) (wf_H _ _ _ WF l)). lia. Qed.

  Lemma hash_nonneg l : 0 <= H l.
  Proof. apply (wf_H _ _ _ WF). Qed.

  (* on exponents in [0,q) the table of g gives the power, with and without timing protection *)
  Lemma table_g_fspowm r : 0 <= r < q -> fspowm (table_g G) g r p = Some (powm g r p).
  Proof. intros Hr. exact (fspowm_spec g q r p Hp Hq Hg Hr Ht). Qed.

  Lemma table_g_fpowm r : 0 <= r < q -> fpowm (table_g G) g r p = Some (powm g r p).
  Proof. intros Hr. exact (fpowm_spec g q r p Hp Hq Hr Ht). Qed.

  Lemma generate_key_spec raw old :
    generate_key H G raw old =
      Some (raw mod q, powm g (raw mod q) p, H [powm g (raw mod q) p], mkKstate (powm g (raw mod q) p) (ks_hj old)).
  Proof. unfold generate_key. fold p q g. now rewrite table_g_fspowm by apply srandomm_range, Hq. Qed.

  Lemma compute_nizk_spec x hi raw :
    compute_nizk H G x hi raw =
      let v := srandomm raw q in
      let c := H [p; q; g; hi; powm g v p] in Some (c, (- (c * x) + v) mod q).
  Proof. unfold compute_nizk. fold p q g. now rewrite table_g_fspowm by apply srandomm_range, Hq. Qed.

  (* on a key g^x, a challenge of hash size and a response in [0,q), VerifyNIZK compares the challenge with the hash of
     the recomputed commitment *)
  Lemma verify_nizk_spec x c r : 0 <= x -> (hbits <? sizeinbase2 c) = false -> 0 <= c -> 0 <= r < q ->
    verify_nizk H hbits G (powm g x p) c r =
      if c =? H [p; q; g; powm g x p; (powm g r p * powm (powm g x p) c p) mod p] then Accept else Reject.
  Proof.
    intros Hx Sc Hc Hr. unfold verify_nizk. fold p q g.
    now rewrite (proj2 (check_element_spec G _) (in_group_pow p q Hp Hq g x Hg Hx)), Sc, (abs_below r q Hr),
      (table_g_fpowm r Hr), (mpz_powm_nonneg _ c p Hc).
  Qed.

  (* completeness of the key-share proof: whatever the coin and the oracle, the published proof verifies *)
  Theorem nizk_complete x raw c r : 0 <= x ->
    compute_nizk H G x (powm g x p) raw = Some (c, r) -> verify_nizk H hbits G (powm g x p) c r = Accept.
  Proof.
    intros Hx. rewrite compute_nizk_spec. cbv zeta. intros [= <- <-]. pose proof (srandomm_range raw q Hq) as Hv.
    rewrite verify_nizk_spec by (assumption || apply hash_size || apply hash_nonneg || apply Z.mod_pos_bound, Hq).
    rewrite (schnorr_identity p q Hp Hq g x _ (srandomm raw q) _ Hg Hx (hash_nonneg _));
      [now rewrite Z.eqb_refl|lia|apply Z.mod_pos_bound, Hq|].
    rewrite Zplus_mod_idemp_l. f_equal. ring.
  Qed.

  (* honest players: secret and coin arbitrary; the contribution is accepted by construction *)
  Corollary publish_key_accepted x raw : 0 <= x ->
    exists m, publish_key H G x (powm g x p) raw = Some m /\ msg_key m = powm g x p /\ accepted H hbits G m.
  Proof.
    intros Hx. unfold publish_key. rewrite compute_nizk_spec. cbv zeta.
    eexists. split; [reflexivity|]. split; [reflexivity|]. apply (nizk_complete x raw); [assumption|apply compute_nizk_spec].
  Qed.

  Lemma verify_nizk_accept foo c r : verify_nizk H hbits G foo c r = Accept ->
    check_element G foo = true /\ sizeinbase2 c <= hbits /\ Z.abs r < q /\ exists t, c = H [p; q; g; foo; t].
  Proof.
    unfold verify_nizk. fold p q g. destruct (check_element G foo); [|discriminate].
    destruct (Z.ltb_spec hbits (sizeinbase2 c)); [discriminate|]. destruct (Z.leb_spec q (Z.abs r)); [discriminate|].
    destruct (fpowm _ _ _ _) as [t|]; [|discriminate]. destruct (mpz_powm _ _ _) as [kc|]; [|discriminate].
    destruct (Z.eqb_spec c (H [p; q; g; foo; (t * kc) mod p])); [eauto|discriminate].
  Qed.

  (* the refusals the property names: key outside the group, response out of range, wrong challenge,
     and an incomplete message *)
  Theorem verify_refuses foo c r :
    (check_element G foo = false \/ q <= Z.abs r \/ hbits < sizeinbase2 c \/
     (forall t, c <> H [p; q; g; foo; t])) ->
    verify_nizk H hbits G foo c r <> Accept.
  Proof.
    intros D A. apply verify_nizk_accept in A. destruct A as (E & S & R & t & T).
    destruct D as [D|[D|[D|D]]]; [congruence|lia|lia|exact (D t T)].
  Qed.

  Lemma accepted_element m : accepted H hbits G m -> check_element G (msg_key m) = true.
  Proof. destruct m as [[foo c] r]. intros A. now apply verify_nizk_accept in A. Qed.

  Lemma update_key_cases s good m :
    good = true /\ accepted H hbits G m /\
      update_key H hbits G s good m =
        (Accept, mkKstate ((ks_h s * msg_key m) mod p) (map_set (H [msg_key m]) (msg_key m) (ks_hj s))) \/
    ~ (good = true /\ accepted H hbits G m) /\
      fst (update_key H hbits G s good m) <> Accept /\ snd (update_key H hbits G s good m) = s.
  Proof.
    destruct m as [[foo c] r]. unfold update_key, accepted, msg_key. cbn [fst].
    destruct good; cbn [negb]; [destruct (verify_nizk H hbits G foo c r)|]; cbn [fst snd]; intuition congruence.
  Qed.

  Lemma update_accepted s m : accepted H hbits G m ->
    update_key H hbits G s true m =
      (Accept, mkKstate ((ks_h s * msg_key m) mod p) (map_set (H [msg_key m]) (msg_key m) (ks_hj s))).
  Proof. destruct (update_key_cases s true m); tauto. Qed.

  Theorem update_reject_unchanged s good m :
    fst (update_key H hbits G s good m) <> Accept -> snd (update_key H hbits G s good m) = s.
  Proof. destruct (update_key_cases s good m) as [(_ & _ & ->)|]; tauto. Qed.

  Theorem update_accept_iff s good m :
    fst (update_key H hbits G s good m) = Accept <-> good = true /\ accepted H hbits G m.
  Proof. destruct (update_key_cases s good m) as [(? & ? & ->)|]; tauto. Qed.

  Lemma run_updates_cons s m l : run_updates H hbits G s (m :: l) = run_updates H hbits G (snd (update_key H hbits G s true m)) l.
  Proof. reflexivity. Qed.

  Lemma run_updates_h : forall l s, 0 <= ks_h s < p -> Forall (accepted H hbits G) l ->
    ks_h (run_updates H hbits G s l) = (ks_h s * prodl (map msg_key l)) mod p.
  Proof.
    induction l as [|m l IH]; intros s Hs Hl.
    - cbn. rewrite Z.mul_1_r. now rewrite Z.mod_small.
    - inversion Hl as [|? ? Hm Hl']; subst. rewrite run_updates_cons, (update_accepted s m Hm). cbn [snd].
      rewrite IH; [|apply Z.mod_pos_bound; lia|assumption].
      cbn [ks_h map]. rewrite prodl_cons, Zmult_mod_idemp_l. f_equal. ring.
  Qed.

  Theorem update_order_indep s l l' : 0 <= ks_h s < p -> Permutation l l' -> Forall (accepted H hbits G) l ->
    ks_h (run_updates H hbits G s l) = ks_h (run_updates H hbits G s l') /\
    ks_h (run_updates H hbits G s l) = (ks_h s * prodl (map msg_key l)) mod p.
  Proof.
    intros Hs P A. assert (A' : Forall (accepted H hbits G) l') by (eapply Permutation_Forall; eassumption).
    rewrite !run_updates_h by assumption. split; [|reflexivity].
    f_equal. f_equal. apply prodl_perm. now apply Permutation_map.
  Qed.

  (* player c starts from its own key and processes the others' contributions in any order *)
  Theorem player_final_key pre c post l m0 :
    Forall (accepted H hbits G) (pre ++ c :: post) -> Forall (fun c => 0 <= msg_key c < p) (pre ++ c :: post) ->
    Permutation l (pre ++ post) ->
    ks_h (run_updates H hbits G (mkKstate (msg_key c) m0) l) = prodl (map msg_key (pre ++ c :: post)) mod p.
  Proof.
    intros A R P. apply (Permutation_cons_app _ _ c), Permutation_sym in P.
    rewrite (prodl_perm _ _ (Permutation_map msg_key P)). apply (Permutation_Forall P) in A. apply Forall_elt in R.
    apply run_updates_h; [exact R|now inversion A].
  Qed.

  Theorem all_players_same_key cs pre1 c1 post1 l1 m1 pre2 c2 post2 l2 m2 :
    cs = pre1 ++ c1 :: post1 -> cs = pre2 ++ c2 :: post2 ->
    Forall (accepted H hbits G) cs -> Forall (fun c => 0 <= msg_key c < p) cs ->
    Permutation l1 (pre1 ++ post1) -> Permutation l2 (pre2 ++ post2) ->
    ks_h (run_updates H hbits G (mkKstate (msg_key c1) m1) l1) = prodl (map msg_key cs) mod p /\
    ks_h (run_updates H hbits G (mkKstate (msg_key c2) m2) l2) = prodl (map msg_key cs) mod p.
  Proof.
    intros E1 E2 A R P1 P2. split; [rewrite E1 in A, R |- *|rewrite E2 in A, R |- *]; now apply player_final_key.
  Qed.

  (* removing a stored group element k from h = X * k leaves X *)
  Lemma remove_stored s foo k X : map_get (H [foo]) (ks_hj s) = Some k -> check_element G k = true ->
    ks_h s = (X * k) mod p ->
    remove_key H G s true foo = (true, mkKstate (X mod p) (map_erase (H [foo]) (ks_hj s))).
  Proof.
    intros E C Eh. unfold remove_key. cbn [negb]. rewrite E. fold p.
    destruct (in_group_inverse p q Hp Hq k (proj1 (check_element_spec G k) C)) as (i & -> & _ & Mi).
    now rewrite Eh, (mod_cancel_l p k i X Mi).
  Qed.

  Theorem remove_restores s m : 0 <= ks_h s < p -> accepted H hbits G m ->
    map_get (H [msg_key m]) (ks_hj s) = None ->
    remove_key H G (snd (update_key H hbits G s true m)) true (msg_key m) = (true, s).
  Proof.
    intros Hs A N. rewrite (update_accepted s m A). cbn [snd].
    rewrite (remove_stored _ _ (msg_key m) (ks_h s)); [|apply map_get_set_same|now apply accepted_element|reflexivity].
    cbn [ks_hj]. rewrite map_erase_set, (map_erase_none _ _ N), Z.mod_small by assumption. now destruct s.
  Qed.

  Theorem remove_absent_unchanged s good k : (good = false \/ map_get (H [k]) (ks_hj s) = None) ->
    remove_key H G s good k = (false, s).
  Proof. unfold remove_key. intros [E|E]; [now rewrite E|]. destruct good; cbn [negb]; [now rewrite E|reflexivity]. Qed.

  (* h0 = the player's own key; the invariant: h is h0 times the product of the stored keys *)
  Definition ring_inv (h0 : Z) (s : kstate) : Prop :=
    ks_h s = (h0 * prodl (map snd (ks_hj s))) mod p /\
    Forall (fun kv => check_element G (snd kv) = true /\ fst kv = H [snd kv]) (ks_hj s) /\
    NoDup (map fst (ks_hj s)).

  (* "no key is added twice": an accepted contribution's fingerprint is not already stored *)
  Definition fresh_ok (s : kstate) (o : kop) : Prop :=
    match o with
    | OpAdd true m => accepted H hbits G m -> map_get (H [msg_key m]) (ks_hj s) = None
    | _ => True
    end.

  Fixpoint script_ok (s : kstate) (ops : list kop) : Prop :=
    match ops with
    | [] => True
    | o :: r => fresh_ok s o /\ script_ok (step H hbits G s o) r
    end.

  Lemma step_inv h0 s o : ring_inv h0 s -> fresh_ok s o -> ring_inv h0 (step H hbits G s o).
  Proof.
    intros I F. pose proof I as (Ih & If & Ind). destruct o as [good m|good k]; cbn [step].
    - destruct (update_key_cases s good m) as [(-> & A & ->)|(_ & _ & ->)]; [|exact I].
      specialize (F A). unfold ring_inv, map_set. cbn [snd ks_h ks_hj]. rewrite (map_erase_none _ _ F).
      cbn [map snd fst]. rewrite prodl_cons. split; [|split].
      + rewrite Ih, Zmult_mod_idemp_l. f_equal. ring.
      + constructor; [|assumption]. split; [now apply accepted_element|reflexivity].
      + constructor; [now apply map_get_none_notin|assumption].
    - destruct good; [|exact I]. destruct (map_get (H [k]) (ks_hj s)) as [k0|] eqn:E;
        [|now rewrite remove_absent_unchanged by auto].
      pose proof (map_erase_perm _ _ _ Ind E) as P. apply (Permutation_Forall P) in If. inversion If as [|? ? [C0 _] If']; subst.
      apply (Permutation_NoDup (Permutation_map fst P)) in Ind. inversion Ind as [|? ? _ Ind']; subst.
      rewrite (remove_stored s k k0 (h0 * prodl (map snd (map_erase (H [k]) (ks_hj s)))) E C0)
        by (rewrite Ih, (prodl_perm _ _ (Permutation_map snd P)); cbn [map snd]; rewrite prodl_cons; f_equal; ring).
      now repeat split.
  Qed.

  Theorem interleaving_invariant h0 : forall ops s, ring_inv h0 s -> script_ok s ops ->
    ring_inv h0 (fold_left (step H hbits G) ops s).
  Proof.
    induction ops as [|o ops IH]; intros s I S; [assumption|]. cbn [fold_left]. destruct S as [F S].
    apply IH; [now apply step_inv|assumption].
  Qed.

  Lemma ring_inv_init h0 : 0 <= h0 < p -> ring_inv h0 (mkKstate h0 []).
  Proof.
    intros B. unfold ring_inv. cbn. split; [|split; constructor].
    rewrite Z.mul_1_r. symmetry. now apply Z.mod_small.
  Qed.
End Lemmas.

(* the boundary the property text leaves open: the same contribution added twice *)
(* tiny group p = 23, q = 11, g = 2; an oracle that answers 0 everywhere makes (key, 0, r) a valid proof *)
Definition dup_G := mkGroup 23 11 2.
Definition dup_H (l : list Z) : Z := 0.
Definition dup_msg : Z * Z * Z := (8, 0, 5).
Definition dup_s0 := mkKstate 2 [].

Lemma dup_wf : wf_params dup_H 8 dup_G.
Proof.
  constructor; try reflexivity.
  - vm_compute. discriminate.
  - lia.
  - intros l. unfold dup_H. change (2 ^ 8) with 256. lia.
Qed.

Theorem duplicate_add_not_restored :
  exists H hbits G s m, wf_params H hbits G /\ accepted H hbits G m /\ 0 <= ks_h s < gp G /\
    let s2 := run_updates H hbits G s [m; m] in
    let r1 := remove_key H G s2 true (msg_key m) in
    let r2 := remove_key H G (snd r1) true (msg_key m) in
    fst r1 = true /\ ks_hj (snd r1) = ks_hj s /\ ks_h (snd r1) <> ks_h s /\ fst r2 = false /\ snd r2 = snd r1.
Proof.
  exists dup_H, 8, dup_G, dup_s0, dup_msg. split; [exact dup_wf|]. split; [vm_compute; reflexivity|].
  split; [cbn; lia|]. vm_compute. repeat split; discriminate.
Qed.
