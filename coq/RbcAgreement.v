(* RbcAgreement: network-level results about RbcModel (C14): the non-FIFO duplicate delivery (refutation witness),
   the quorum counting lemmas behind agreement, and channel isolation of DeliverFrom over every schedule (fold_left gstep). *)
From Coq Require Import ZArith List Bool Lia.
From LT Require Import ListFacts RbcModel RbcLemmas RbcOrder.
Import ListNotations.
Local Open Scope Z_scope.

(* finding F8: without FIFO sequence numbers one slot is delivered once per r-answer *)
Definition f8_H (x : Z) : Z := x + 7.
Definition f8_gen (f : bool) (s : Z) : list event :=
  let snd_ := Msg 5 0 s 1 42 in let ech := Msg 5 0 s 2 49 in let rdy := Msg 5 0 s 3 49 in
  let req := Msg 5 0 s 4 49 in let ans := Msg 5 0 s 5 42 in
  [ESetID 0 5 f; ESetID 1 5 f; ESetID 2 5 f; ESetID 3 5 f;
   EBcast 0 42 s;
   ERecv 0 0 snd_; ERecv 1 0 snd_; ERecv 2 0 snd_;
   ERecv 0 0 ech; ERecv 0 1 ech; ERecv 0 2 ech;
   ERecv 1 0 ech; ERecv 1 1 ech; ERecv 1 2 ech;
   ERecv 2 0 ech; ERecv 2 1 ech; ERecv 2 2 ech;
   (* P3 has heard nothing from the sender; readys of P1, P2, then its own (amplification): quorum without payload *)
   ERecv 3 1 rdy; ERecv 3 2 rdy; ERecv 3 3 rdy;
   ERecv 0 3 req; ERecv 1 3 req; ERecv 2 3 req;
   ERecv 3 0 ans; ERecv 3 1 ans; ERecv 3 2 ans].
Definition f8_events : list event := f8_gen false 9.
Definition f8_run := grun 4 1 0 f8_H (fun _ _ => false) (fun _ => false) f8_events.

Lemma f8_log : glog f8_run = [(3, (5, 0, 9), 42); (3, (5, 0, 9), 42); (3, (5, 0, 9), 42)].
Proof. vm_compute. reflexivity. Qed.

(* the statement "no honest party delivers a slot twice", for all modes *)
Definition no_duplicate_statement : Prop :=
  forall n t skip H toolong byz es, 3 * t < n ->
    NoDup (map (fun e : Z * tagT * Z => fst e) (glog (grun n t skip H toolong byz es))).

Lemma no_dup_nonfifo_refuted : ~ no_duplicate_statement.
Proof.
  intros N. specialize (N 4 1 0 f8_H (fun _ _ => false) (fun _ => false) f8_events).
  assert (L : 3 * 1 < 4) by lia. specialize (N L). clear L.
  vm_compute in N. inversion N as [|? ? NI _]. apply NI. left. reflexivity.
Qed.

(* the same schedule on a FIFO channel (it delivers once: C14_nonvacuous_fifo_once) *)
Definition f8_events_fifo : list event := f8_gen true 1.

Lemma in_existsb_eqb : forall l (L : list Z), existsb (Z.eqb l) L = true <-> In l L.
Proof.
  intros l L. rewrite existsb_exists. split.
  - intros (y & I & E). apply Z.eqb_eq in E. subst; auto.
  - intros I. exists l. split; auto. apply Z.eqb_refl.
Qed.

Lemma nodup_minus_length : forall (B L0 L : list Z), NoDup L0 -> (forall l, In l L0 -> In l B \/ In l L) ->
  (length L0 <= length L + length B)%nat.
Proof.
  intros B L0 L ND I. rewrite <- app_length. apply NoDup_incl_length; auto.
  intros l J. apply in_or_app. destruct (I l J); auto.
Qed.

Lemma nodup_exceeds_honest : forall (B L : list Z), NoDup L -> (length B < length L)%nat ->
  exists l, In l L /\ ~ In l B.
Proof.
  intros B L ND Len.
  destruct (Forall_Exists_dec (fun l => In l B) (fun l => in_dec Z.eq_dec l B) L) as [F|E].
  - rewrite Forall_forall in F. pose proof (NoDup_incl_length ND F). lia.
  - apply Exists_exists in E. exact E.
Qed.

Lemma bounded_nodup_length : forall (n : Z) (L : list Z), 0 <= n -> NoDup L -> (forall l, In l L -> 0 <= l < n) ->
  Z.of_nat (length L) <= n.
Proof.
  intros n L N0 ND R. rewrite <- (range_length n N0). apply Nat2Z.inj_le. apply NoDup_incl_length; [exact ND|].
  intros l Il. apply range_in. auto.
Qed.

Lemma intersect_honest : forall (n : Z) (B L1 L2 : list Z), 0 <= n -> NoDup L1 -> NoDup L2 ->
  (forall l, In l L1 -> 0 <= l < n) -> (forall l, In l L2 -> 0 <= l < n) ->
  n + Z.of_nat (length B) < Z.of_nat (length L1) + Z.of_nat (length L2) ->
  exists l, In l L1 /\ In l L2 /\ ~ In l B.
Proof.
  intros n B L1 L2 N0 ND1 ND2 R1 R2 Len.
  set (C := filter (fun l => existsb (Z.eqb l) L2) L1).
  set (D := filter (fun l => negb (existsb (Z.eqb l) L2)) L1).
  assert (LC : (length C + length D = length L1)%nat).
  { unfold C, D. clear. induction L1 as [|a r IH]; cbn; auto. destruct (existsb (Z.eqb a) L2); cbn; lia. }
  assert (NDD : NoDup (D ++ L2)).
  { apply NoDup_app_intro; auto.
    - apply NoDup_filter; auto.
    - intros x Ix I2. apply filter_In in Ix. destruct Ix as [_ Ix]. apply negb_true_iff in Ix.
      apply in_existsb_eqb in I2. congruence. }
  assert (LD : Z.of_nat (length (D ++ L2)) <= n).
  { apply bounded_nodup_length; auto. intros l I. apply in_app_or in I. destruct I as [I|I]; auto.
    apply filter_In in I. destruct I as [I _]. auto. }
  rewrite app_length in LD.
  assert (NC : NoDup C) by (apply NoDup_filter; auto).
  destruct (nodup_exceeds_honest B C NC) as (l & Il & Nl); [lia|].
  apply filter_In in Il. destruct Il as [I1 I2]. apply in_existsb_eqb in I2. eauto.
Qed.

Lemma quorum_intersect_honest : forall (n t : Z) (B L1 L2 : list Z),
  3 * t < n -> 0 <= t -> Z.of_nat (length B) <= t ->
  NoDup L1 -> NoDup L2 ->
  (forall l, In l L1 -> 0 <= l < n) -> (forall l, In l L2 -> 0 <= l < n) ->
  n - t <= Z.of_nat (length L1) -> n - t <= Z.of_nat (length L2) ->
  exists l, In l L1 /\ In l L2 /\ ~ In l B.
Proof. intros n t B L1 L2 N3 T0 BL ND1 ND2 R1 R2 Q1 Q2. apply (intersect_honest n); auto; lia. Qed.

Section Net.
Variables (n t skip : Z) (H : Z -> Z) (toolong : tagT -> Z -> bool) (byz : Z -> bool).
Notation gstep := (gstep n t skip H toolong byz).
Notation run := (grun n t skip H toolong byz).

Lemma grun_ind : forall (P : gst -> Prop), P ginit -> (forall g e, P g -> P (gstep g e)) -> forall es, P (run es).
Proof.
  intros P P0 PS es. unfold grun.
  assert (G : forall l g, P g -> P (fold_left gstep l g)).
  { induction l as [|e r IH]; cbn; auto. }
  apply G. exact P0.
Qed.

(* channel isolation of the sender-specific call over whole runs: every value DeliverFrom(i) ever returned at party p while
   p was on channel c was delivered by Deliver at p for sender i under a tag of channel c *)
Definition iso_inv (g : gst) : Prop :=
  (forall p c i v, In (p, c, i, v) (gapi g) -> exists s, In (p, (c, i, s), v) (glog g)) /\
  (forall p w v c, In (v, c) (fbuf (gp g p) w) -> exists s, In (p, (c, w, s), v) (glog g)).

Lemma iso_update : forall g p st' sent' log',
  iso_inv g -> (forall x, In x (glog g) -> In x log') ->
  (forall w v c, In (v, c) (fbuf st' w) -> In (v, c) (fbuf (gp g p) w) \/ exists s, In (p, (c, w, s), v) log') ->
  iso_inv (Gst (updZ (gp g) p st') sent' log' (gapi g)).
Proof.
  intros g p st' sent' log' [I1 I2] Mono F. split; cbn.
  - intros p0 c i v I. destruct (I1 _ _ _ _ I) as [s Is]. eauto.
  - intros p0 w v c. unfold updZ. destruct (Z.eqb_spec p0 p).
    + subst p0. intros I. destruct (F _ _ _ I) as [J|J]; auto. destruct (I2 _ _ _ _ J) as [s Is]. eauto.
    + intros I. destruct (I2 _ _ _ _ I) as [s Is]. eauto.
Qed.

Lemma iso_api : forall g p c i v, iso_inv g -> (exists s, In (p, (c, i, s), v) (glog g)) ->
  iso_inv (Gst (gp g) (gsent g) (glog g) (gapi g ++ [(p, c, i, v)])).
Proof.
  intros g p c i v [I1 I2] E. split; cbn; auto.
  intros p0 c0 i0 v0 I. apply in_app_or in I. destruct I as [I|[I|[]]]; auto. inversion I; subst. exact E.
Qed.

Lemma iso_deliver : forall g p off, iso_inv g -> iso_inv (apply_out g p (deliver n t skip H toolong p (gp g p) off)).
Proof.
  intros g p off Inv. unfold apply_out. apply iso_update; auto; [intros x I; apply in_or_app; auto|].
  intros w v c I. left. destruct (deliver_spec n t skip H toolong p (gp g p) off) as [(_&_&_&_&_&F) _]. rewrite F. exact I.
Qed.

Lemma iso_deliver_from : forall g p i off, iso_inv g ->
  iso_inv (apply_from g p i (deliver_from n t skip H toolong p (gp g p) i off)).
Proof.
  intros g p i off Inv. unfold apply_from. set (ov := deliver_from n t skip H toolong p (gp g p) i off).
  assert (A : iso_inv (apply_out g p (fst ov))).
  { unfold apply_out. apply iso_update; auto; [intros x I; apply in_or_app; auto|].
    intros w v c I. apply deliver_from_buffers in I. destruct I as [I|(-> & s & E)]; auto.
    right. exists s. apply in_or_app. right. fold ov in E. rewrite E. cbn. auto. }
  destruct (snd ov) as [v|] eqn:R; auto.
  apply (iso_api (apply_out g p (fst ov))); auto.
  apply deliver_from_isolation in R. destruct Inv as [_ I2]. destruct (I2 _ _ _ _ R) as [s Is].
  exists s. cbn. apply in_or_app. auto.
Qed.

Lemma iso_switch : forall g p st', iso_inv g -> same_proto (gp g p) st' -> iso_inv (set_party g p st').
Proof.
  intros g p st' Inv (_&_&_&_&_&_&_&F). unfold set_party. apply iso_update; auto. intros w v c I. left. rewrite F in I. exact I.
Qed.

Lemma iso_step : forall g e, iso_inv g -> iso_inv (gstep g e).
Proof.
  intros g e Inv. destruct e; cbn [RbcModel.gstep]; (destruct (honest n byz p); [cbn [andb]|exact Inv]).
  - unfold broadcast. apply iso_update; auto; cbn; auto.
  - destruct (can_recv n byz g p l m); [apply iso_deliver|]; exact Inv.
  - apply iso_deliver; exact Inv.
  - destruct (can_recv n byz g p l m); [apply iso_deliver_from|]; exact Inv.
  - apply iso_deliver_from; exact Inv.
  - apply iso_switch; [exact Inv|apply set_id_same].
  - apply iso_switch; [exact Inv|apply recover_id_same].
  - apply iso_switch; [exact Inv|apply unset_id_same].
Qed.

Theorem deliverfrom_isolation_run : forall es p c i v,
  In (p, c, i, v) (gapi (run es)) -> exists s, In (p, (c, i, s), v) (glog (run es)).
Proof.
  intros es. assert (I : iso_inv (run es)); [|exact (proj1 I)].
  apply grun_ind.
  - split; cbn; intros ? ? ? ? [].
  - apply iso_step.
Qed.

End Net.
