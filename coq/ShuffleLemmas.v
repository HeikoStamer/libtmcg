(* ShuffleLemmas: proofs about ShuffleModel (C02: mix / glue / generators / import check).
   mix and glue both tabulate a partial function of the position (`tabulate`); what they return is read off
   position by position (`tabulate_ret`).  A list read at the indices js, js a permutation of 0..n-1, is a
   permutation of the list (`reindex_perm`): that is why mixing keeps the card types and gluing keeps bijections. *)
From Coq Require Import ZArith NArith List Bool Lia ZifyBool Permutation FinFun Zdiv.
From LT Require Import ListFacts gen_Consts Zbase CodecModel SamplerModel SamplerLemmas ShuffleModel.
Import ListNotations.
Local Open Scope N_scope.

Lemma nth_error_ex {A} (l : list A) i : (i < length l)%nat -> exists x, nth_error l i = Some x.
Proof. intros L. destruct (nth_error l i) eqn:E; [eauto | apply nth_error_None in E; lia]. Qed.

Lemma nth_error_lt {A} (l : list A) i x : nth_error l i = Some x -> (i < length l)%nat.
Proof. intros E. apply nth_error_Some. congruence. Qed.

Lemma nth_error_seq a n i : (i < n)%nat -> nth_error (seq a n) i = Some (a + i)%nat.
Proof. intros L. rewrite nth_error_nth' with (d := O) by now rewrite seq_length. now rewrite seq_nth. Qed.

Lemma nth_error_firstn_skipn {A} (l : list A) : forall i x, nth_error l i = Some x -> l = firstn i l ++ x :: skipn (S i) l.
Proof. induction l as [|a l IH]; intros [|i] x E; try discriminate; cbn in *; [now injection E as -> | f_equal; now apply IH]. Qed.

Lemma perm_agree_prefix {A} : forall (l l' : list A) m, Permutation l l' -> length l = S m ->
  (forall p, (p < m)%nat -> nth_error l p = nth_error l' p) -> l = l'.
Proof.
  induction l as [|x t IH]; intros l' m P L H; [discriminate|].
  destruct l' as [|x' t']; [apply Permutation_sym, Permutation_nil in P; discriminate|].
  destruct m as [|m].
  - destruct t; [|discriminate]. apply Permutation_length_1_inv in P. now symmetry.
  - pose proof (H O ltac:(lia)) as H0. cbn in H0. injection H0 as <-.
    f_equal. apply (IH t' m).
    + eapply Permutation_cons_inv. exact P.
    + cbn in L. lia.
    + intros p Hp. apply (H (S p)). lia.
Qed.

Lemma upd_length {A} (l : list A) : forall k x, length (upd l k x) = length l.
Proof. induction l as [|h t IH]; intros [|k] x; cbn; auto. Qed.

Lemma nth_error_upd {A} (l : list A) : forall k x j, (k < length l)%nat ->
  nth_error (upd l k x) j = if (j =? k)%nat then Some x else nth_error l j.
Proof. induction l as [|h t IH]; intros [|k] x [|j] L; cbn in *; try lia; auto. apply IH. lia. Qed.

Lemma nthN_lt {A} (l : list A) j : j < N.of_nat (length l) -> nthN l j = nth_error l (N.to_nat j).
Proof. intros L. unfold nthN. destruct (N.ltb_spec j (N.of_nat (length l))); [reflexivity | lia]. Qed.

Lemma nthN_spec {A} (l : list A) j x : nthN l j = Some x <-> (j < N.of_nat (length l) /\ nth_error l (N.to_nat j) = Some x).
Proof.
  unfold nthN. destruct (N.ltb_spec j (N.of_nat (length l))) as [L|L].
  - tauto.
  - split; [discriminate | intros [L' _]; lia].
Qed.

Lemma nthN_of_nat {A} (l : list A) i : nthN l (N.of_nat i) = nth_error l i.
Proof.
  unfold nthN. rewrite Nat2N.id. destruct (N.ltb_spec (N.of_nat i) (N.of_nat (length l))); [reflexivity|].
  symmetry. apply nth_error_None. lia.
Qed.

Lemma nthN_map {A B} (f : A -> B) l j : nthN (map f l) j = option_map f (nthN l j).
Proof. unfold nthN. rewrite map_length, nth_error_map. now destruct (_ <? _). Qed.

Lemma iota_length n : length (iota n) = n.
Proof. unfold iota. now rewrite map_length, seq_length. Qed.

Lemma nth_error_iota n i : (i < n)%nat -> nth_error (iota n) i = Some (N.of_nat i).
Proof. intros. unfold iota. now rewrite nth_error_map, nth_error_seq. Qed.

Lemma in_iota n x : In x (iota n) <-> x < N.of_nat n.
Proof.
  unfold iota. rewrite in_map_iff. split.
  - intros (i & <- & Hi). apply in_seq in Hi. lia.
  - intros L. exists (N.to_nat x). split; [lia|]. apply in_seq. lia.
Qed.

Lemma NoDup_iota n : NoDup (iota n).
Proof. unfold iota. apply Injective_map_NoDup; [|apply seq_NoDup]. intros a b E. lia. Qed.

Definition pick {A} (l : list A) (j : N) : list A := match nthN l j with Some x => [x] | None => [] end.

Lemma pick_all {A} (l : list A) : forall (js : list N) (l2 : list A), length js = length l2 ->
  (forall i j x, nth_error js i = Some j -> nth_error l2 i = Some x -> nthN l j = Some x) ->
  flat_map (pick l) js = l2.
Proof.
  induction js as [|j js IH]; intros [|x l2] L H; try discriminate; [reflexivity|].
  cbn. unfold pick at 1. rewrite (H O j x eq_refl eq_refl). cbn. f_equal.
  apply IH; [cbn in L; lia|]. intros i. apply (H (S i)).
Qed.

Theorem reindex_perm {A} (l l2 : list A) (js : list N) : length js = length l2 ->
  (forall i j x, nth_error js i = Some j -> nth_error l2 i = Some x -> nthN l j = Some x) ->
  Permutation js (iota (length l)) -> Permutation l2 l.
Proof.
  intros L H P. rewrite <- (pick_all l js l2 L H).
  transitivity (flat_map (pick l) (iota (length l))); [now apply Permutation_flat_map|].
  rewrite (pick_all l _ l); [reflexivity | apply iota_length|].
  intros i j x Ej Ex. rewrite nth_error_iota in Ej by (eapply nth_error_lt; eassumption).
  injection Ej as <-. now rewrite nthN_of_nat.
Qed.

Lemma seq_res_ret {A} (l : list (res A)) : forall r, seq_res l = Ret r -> l = map Ret r.
Proof.
  induction l as [|x l IH]; cbn; intros r E; [now injection E as <-|].
  destruct x; try discriminate. destruct (seq_res l); try discriminate.
  injection E as <-. cbn. f_equal. now apply IH.
Qed.

Lemma seq_res_map_total {A B} (f : B -> res A) (l : list B) :
  (forall i, In i l -> exists a, f i = Ret a) -> exists r, seq_res (map f l) = Ret r.
Proof.
  induction l as [|i l IH]; intros H; [exists []; reflexivity|].
  destruct (H i (or_introl eq_refl)) as (a & Ea). destruct IH as (r & Er); [intros; apply H; now right|].
  exists (a :: r). cbn. rewrite Ea. cbn. rewrite Er. reflexivity.
Qed.

(* the common body of mix and glue: f 0, .., f (n - 1), stopped by the first failure, pushed into a bounded stack *)
Definition tabulate {A} (f : nat -> res A) (n : nat) : res (list A) :=
  bind (seq_res (map f (seq 0 n))) (fun l => Ret (firstn max_cards l)).

Lemma tabulate_ret {A} (f : nat -> res A) n r : tabulate f n = Ret r ->
  length r = Nat.min max_cards n /\
  forall i, (i < n)%nat -> exists a, f i = Ret a /\ ((i < max_cards)%nat -> nth_error r i = Some a).
Proof.
  unfold tabulate. destruct (seq_res _) as [l| | | | |] eqn:E; try discriminate. cbn [bind]. intros R.
  assert (r = firstn max_cards l) as -> by congruence.   (* `injection` would unfold firstn at the numeral max_cards *)
  apply seq_res_ret in E.
  assert (L : length l = n) by (apply (f_equal (@length _)) in E; now rewrite !map_length, seq_length in E).
  split; [now rewrite firstn_length, L|]. intros i Hi.
  apply (f_equal (fun m => nth_error m i)) in E. rewrite !nth_error_map, nth_error_seq in E by assumption.
  destruct (nth_error l i) as [a|] eqn:Ea; [|discriminate]. injection E as E.
  exists a. split; [exact E|]. intros Hm. now rewrite nth_error_firstn_lt.
Qed.

Lemma tabulate_total {A} (f : nat -> res A) n :
  (forall i, (i < n)%nat -> exists a, f i = Ret a) -> exists r, tabulate f n = Ret r.
Proof.
  intros H. destruct (seq_res_map_total f (seq 0 n)) as (l & E).
  - intros i Hi. apply in_seq in Hi. apply H. lia.
  - unfold tabulate. rewrite E. cbn [bind]. eauto.
Qed.

Lemma tabulate_ext {A} (f g : nat -> res A) n : (forall i, (i < n)%nat -> f i = g i) -> tabulate f n = tabulate g n.
Proof. intros H. unfold tabulate. do 2 f_equal. apply map_ext_in. intros i Hi. apply in_seq in Hi. apply H. lia. Qed.

Lemma assert_eq_ret {A} (n m : nat) (x : res A) r :
  (if negb (n =? m)%nat then AssertFail else x) = Ret r <-> n = m /\ x = Ret r.
Proof. destruct (Nat.eqb_spec n m); cbn [negb]; intuition congruence. Qed.

Definition transp (i j n : nat) : nat := if (n =? i)%nat then j else if (n =? j)%nat then i else n.

Lemma transp_inj i j : Injective (transp i j).
Proof.
  intros a b. unfold transp.
  destruct (Nat.eqb_spec a i), (Nat.eqb_spec b i), (Nat.eqb_spec a j), (Nat.eqb_spec b j); lia.
Qed.

Lemma swap_idx_nth pi i j pi' : swap_idx pi i j = Ret pi' ->
  length pi' = length pi /\ (i < length pi)%nat /\ (j < length pi)%nat /\
  forall n, nth_error pi' n = nth_error pi (transp i j n).
Proof.
  unfold swap_idx. destruct (nth_error pi i) as [a|] eqn:Ea; [|discriminate].
  destruct (nth_error pi j) as [b|] eqn:Eb; [|discriminate]. intros E. injection E as <-.
  pose proof (nth_error_lt _ _ _ Ea) as Li. pose proof (nth_error_lt _ _ _ Eb) as Lj.
  rewrite !upd_length. repeat split; try assumption.
  intros n. rewrite !nth_error_upd by now rewrite ?upd_length. unfold transp.
  destruct (Nat.eqb_spec n i), (Nat.eqb_spec n j); subst; congruence.
Qed.

Lemma swap_idx_perm pi i j pi' : swap_idx pi i j = Ret pi' -> Permutation pi pi'.
Proof.
  intros E. apply swap_idx_nth in E. destruct E as (L & _ & _ & H).
  apply Permutation_nth_error. split; [congruence|]. exists (transp i j). split; [apply transp_inj | exact H].
Qed.

Lemma swap_idx_total pi i j : (i < length pi)%nat -> (j < length pi)%nat -> exists pi', swap_idx pi i j = Ret pi'.
Proof.
  intros Li Lj. unfold swap_idx.
  destruct (nth_error_ex pi i Li) as (a & ->), (nth_error_ex pi j Lj) as (b & ->). eauto.
Qed.

Theorem fy_loop_perm n : forall k i pi s pi' s', fy_loop k i n pi s = Ret (pi', s') -> Permutation pi pi'.
Proof.
  induction k as [|k IH]; intros i pi s pi' s'; cbn [fy_loop].
  - intros E. injection E as <- <-. apply Permutation_refl.
  - intros E. apply bind_ret in E as ([c r] & _ & E). apply bind_ret in E as (pi1 & Sw & E).
    apply IH in E. apply swap_idx_perm in Sw. eapply Permutation_trans; eassumption.
Qed.

Theorem random_permutation_fast_perm n s pi s' : random_permutation_fast n s = Ret (pi, s') -> Permutation (iota n) pi.
Proof. destruct n; cbn [random_permutation_fast]; [discriminate|]. apply fy_loop_perm. Qed.

(* with an index vector of the right length the loop never leaves the vector and the sampler never throws *)
Theorem fy_loop_outcomes n : forall k i pi s, length pi = n -> (i + k + 1 = n)%nat ->
  match fy_loop k i n pi s with Ret _ | NeedCoins => True | _ => False end.
Proof.
  induction k as [|k IH]; intros i pi s L Hk; cbn [fy_loop]; [exact I|].
  pose proof (random_mod_outcomes (N.of_nat (n - i)) s) as HO.
  destruct (random_mod _ s) as [[c r]| | | | |] eqn:R; cbn [bind fst snd]; try exact I; try lia.
  apply random_mod_range in R. destruct R as (_ & Hc & _).
  destruct (swap_idx_total pi i (i + N.to_nat c)) as (pi1 & Sw); try lia.
  rewrite Sw. cbn [bind]. apply IH; [|lia]. apply swap_idx_nth in Sw. destruct Sw as (L1 & _). congruence.
Qed.

Corollary random_permutation_fast_outcomes n s : (1 <= n)%nat ->
  match random_permutation_fast n s with Ret _ | NeedCoins => True | _ => False end.
Proof. destruct n; [lia|]. intros _. cbn [random_permutation_fast]. apply fy_loop_outcomes; [apply iota_length | lia]. Qed.

Lemma mod_once a n : n <= a < 2 * n -> a mod n = a - n.
Proof. intros H. symmetry. apply N.mod_unique with (q := 1); lia. Qed.

Lemma map_seq_shift {A} (f g : nat -> A) : forall len a b,
  (forall i, (i < len)%nat -> f (a + i)%nat = g (b + i)%nat) -> map f (seq a len) = map g (seq b len).
Proof.
  induction len as [|len IH]; intros a b H; [reflexivity|]. cbn. f_equal.
  - specialize (H O). rewrite !Nat.add_0_r in H. apply H. lia.
  - apply IH. intros i Hi. rewrite !Nat.add_succ_comm. apply H. lia.
Qed.

Definition small_n (n : nat) : Prop := 2 * N.of_nat n <= W.

Lemma max_cards_small n : (n <= max_cards)%nat -> small_n n.
Proof. unfold small_n, max_cards, TMCG_MAX_CARDS, W. lia. Qed.

Lemma rotation_nth n r i : small_n n -> r < N.of_nat n -> (i < n)%nat ->
  nth_error (rotation n r) i = Some ((r + N.of_nat i) mod N.of_nat n).
Proof.
  intros Hn Hr Hi. unfold rotation. rewrite nth_error_map, nth_error_seq by assumption.
  cbn [plus option_map]. unfold add_w. rewrite (N.mod_small (r + N.of_nat i) W); [reflexivity|]. unfold small_n in Hn. lia.
Qed.

Lemma rotation_length n r : length (rotation n r) = n.
Proof. unfold rotation. now rewrite map_length, seq_length. Qed.

Theorem rotation_is_shift n r : small_n n -> r < N.of_nat n ->
  let a := N.to_nat r in
  iota n = map N.of_nat (seq 0 a) ++ map N.of_nat (seq a (n - a)) /\
  rotation n r = map N.of_nat (seq a (n - a)) ++ map N.of_nat (seq 0 a).
Proof.
  intros Hn Hr a. assert (Ha : (a < n)%nat) by lia. unfold small_n in Hn. split.
  - unfold iota. rewrite <- map_app, <- seq_app. do 2 f_equal. lia.
  - unfold rotation. replace (seq 0 n) with (seq 0 (n - a + a)) by (f_equal; lia). rewrite seq_app, map_app. f_equal.
    + apply map_seq_shift. intros i Hi. unfold add_w. rewrite (N.mod_small _ W), N.mod_small by lia. lia.
    + apply map_seq_shift. intros i Hi. unfold add_w. rewrite (N.mod_small _ W), mod_once by lia. lia.
Qed.

Corollary rotation_perm n r : small_n n -> r < N.of_nat n -> Permutation (iota n) (rotation n r).
Proof. intros Hn Hr. destruct (rotation_is_shift n r Hn Hr) as [-> ->]. apply Permutation_app_comm. Qed.

Lemma rotation_offset_spec n r : small_n n -> r < N.of_nat n -> rotation_offset n r = (N.of_nat n - r) mod N.of_nat n.
Proof. intros Hn Hr. unfold rotation_offset, small_n in *. now rewrite sub_w_small by lia. Qed.

(* the reported offset is where the cards went: input card i lies at position (i + offset) mod n of the mixed stack
   (the index vector there is i) *)
Theorem rotation_offset_lands n r i : small_n n -> r < N.of_nat n -> (i < n)%nat ->
  nth_error (rotation n r) (N.to_nat ((N.of_nat i + rotation_offset n r) mod N.of_nat n)) = Some (N.of_nat i).
Proof.
  intros Hn Hr Hi. rewrite rotation_offset_spec by assumption.
  assert (NZ : N.of_nat n <> 0) by lia. pose proof (N.mod_lt (N.of_nat i + (N.of_nat n - r) mod N.of_nat n) _ NZ).
  rewrite rotation_nth by (assumption || lia). rewrite N2Nat.id, N.add_mod_idemp_r, N.add_assoc, N.add_mod_idemp_r by assumption. f_equal.
  replace (r + N.of_nat i + (N.of_nat n - r)) with (N.of_nat i + 1 * N.of_nat n) by lia.
  rewrite N.mod_add by assumption. apply N.mod_small. lia.
Qed.

Lemma rotation_offset_invol n r : small_n n -> r < N.of_nat n ->
  rotation_offset n r < N.of_nat n /\ rotation_offset n (rotation_offset n r) = r.
Proof.
  intros Hn Hr. assert (E : forall x, x < N.of_nat n -> rotation_offset n x = if x =? 0 then 0 else N.of_nat n - x).
  { intros x Hx. rewrite rotation_offset_spec by assumption. destruct (N.eqb_spec x 0) as [->|].
    - rewrite N.sub_0_r. apply N.mod_same. lia.
    - apply N.mod_small. lia. }
  rewrite (E r Hr). destruct (N.eqb_spec r 0) as [->|]; (split; [lia|]); rewrite E by lia.
  - reflexivity.
  - destruct (N.eqb_spec (N.of_nat n - r) 0); lia.
Qed.

Theorem random_rotation_spec n s o pi s' : random_rotation n s = Ret ((o, pi), s') ->
  (2 <= n)%nat /\ exists r, r < N.of_nat n /\ pi = rotation n r /\ o = rotation_offset n r.
Proof.
  unfold random_rotation. intros E. apply bind_ret in E as ([r s1] & R & E).
  injection E as <- <- <-. apply random_mod_range in R. destruct R as (H2 & Hr & _).
  split; [lia|]. exists r. auto.
Qed.

(* uniform r gives a uniform shift: r |-> rotation is injective on [0, n), r |-> offset a bijection of [0, n) *)
Theorem rotation_inj n r r' : small_n n -> r < N.of_nat n -> r' < N.of_nat n -> rotation n r = rotation n r' -> r = r'.
Proof.
  intros Hn Hr Hr' E. assert (H0 : (0 < n)%nat) by lia.
  pose proof (rotation_nth n r 0 Hn Hr H0) as A. rewrite E, (rotation_nth n r' 0 Hn Hr' H0) in A.
  injection A as A. cbn in A. rewrite !N.add_0_r, !N.mod_small in A by lia. now symmetry.
Qed.

Theorem rotation_offset_inj n r r' : small_n n -> r < N.of_nat n -> r' < N.of_nat n ->
  rotation_offset n r = rotation_offset n r' -> r = r'.
Proof.
  intros Hn Hr Hr' E. rewrite <- (proj2 (rotation_offset_invol n r Hn Hr)), E. now apply rotation_offset_invol.
Qed.

Theorem rotation_offset_surj n o : small_n n -> o < N.of_nat n -> exists r, r < N.of_nat n /\ rotation_offset n r = o.
Proof. intros Hn Ho. exists (rotation_offset n o). now apply rotation_offset_invol. Qed.

Section Mix.
  Variables card secret : Type.
  Variable mask : card -> secret -> card.
  Notation mix := (mix card secret mask).
  Notation mix_card := (mix_card card secret mask).

  Definition in_range (n : nat) (ss : list (N * secret)) : Prop := Forall (fun p => fst p < N.of_nat n) ss.

  Lemma in_range_nth n ss i j r : in_range n ss -> nth_error ss i = Some (j, r) -> j < N.of_nat n.
  Proof. intros R E. apply nth_error_In in E. unfold in_range in R. rewrite Forall_forall in R. apply (R _ E). Qed.

  Lemma mix_eq_tabulate s ss :
    mix s ss = if negb (length s =? length ss)%nat then AssertFail else tabulate (mix_card s ss) (length s).
  Proof. reflexivity. Qed.

  Lemma mix_ret s ss s2 : mix s ss = Ret s2 <-> length s = length ss /\ tabulate (mix_card s ss) (length s) = Ret s2.
  Proof. rewrite mix_eq_tabulate. apply assert_eq_ret. Qed.

  Lemma mix_card_eval s ss i j c r : nth_error (map fst ss) i = Some j -> nth_error s (N.to_nat j) = Some c ->
    nth_error (map snd ss) (N.to_nat j) = Some r -> mix_card s ss i = Ret (mask c r).
  Proof.
    rewrite !nth_error_map. intros A B C. unfold ShuffleModel.mix_card.
    destruct (nth_error ss i) as [[j0 r0]|]; [|discriminate]. injection A as ->.
    destruct (nth_error ss (N.to_nat j)) as [[j' r']|] eqn:C'; [|discriminate]. injection C as ->.
    pose proof (nth_error_lt _ _ _ B). pose proof (nth_error_lt _ _ _ C'). now rewrite !nthN_lt, B, C' by lia.
  Qed.

  Lemma mix_card_ret s ss i c' : mix_card s ss i = Ret c' ->
    exists j r0 c j' r, nth_error ss i = Some (j, r0) /\ nthN s j = Some c /\ nthN ss j = Some (j', r) /\ c' = mask c r.
  Proof.
    unfold ShuffleModel.mix_card. destruct (nth_error ss i) as [[j r0]|]; [|discriminate].
    destruct (nthN s j) as [c|] eqn:Ec; [|discriminate]. destruct (nthN ss j) as [[j' r]|] eqn:Er; [|discriminate].
    intros E. injection E as <-. exists j, r0, c, j', r. auto.
  Qed.

  Lemma mix_at s ss s2 i : mix s ss = Ret s2 -> (i < length s)%nat -> (i < max_cards)%nat ->
    exists c, mix_card s ss i = Ret c /\ nth_error s2 i = Some c.
  Proof.
    intros M Hi Hm. apply mix_ret in M. destruct M as (_ & T).
    destruct (proj2 (tabulate_ret _ _ _ T) i Hi) as (c & C & E). eauto.
  Qed.

  (* push is bounded, so stacks never exceed TMCG_MAX_CARDS *)
  Theorem mix_length s ss s2 : mix s ss = Ret s2 -> (length s <= max_cards)%nat -> length s2 = length s.
  Proof. intros M Hn. apply mix_ret in M. destruct M as (_ & T). apply tabulate_ret in T. destruct T as (L & _). lia. Qed.

  (* card i of the output is the re-masking of the input card designated by the i-th index,
     with the secret stored at THAT index (not at i) *)
  Theorem mix_nth s ss s2 i : mix s ss = Ret s2 -> (i < length s)%nat -> (i < max_cards)%nat ->
    exists j r0 c j' r, nth_error ss i = Some (j, r0) /\ nthN s j = Some c /\ nthN ss j = Some (j', r) /\
                        nth_error s2 i = Some (mask c r).
  Proof.
    intros M Hi Hm. destruct (mix_at s ss s2 i M Hi Hm) as (c' & C & E).
    apply mix_card_ret in C. destruct C as (j & r0 & c & j' & r & A & B & D & ->). exists j, r0, c, j', r. auto.
  Qed.

  (* normal return exactly for equal sizes and indices inside the stack; otherwise abort resp. undefined behaviour *)
  Theorem mix_total s ss : length s = length ss -> in_range (length s) ss -> exists s2, mix s ss = Ret s2.
  Proof.
    intros L R. destruct (tabulate_total (mix_card s ss) (length s)) as (s2 & T).
    - intros i Hi. destruct (nth_error_ex ss i) as ([j r0] & Ei); [lia|].
      pose proof (in_range_nth _ _ _ _ _ R Ei) as Hj.
      destruct (nth_error_ex s (N.to_nat j)) as (c & Ec); [lia|].
      destruct (nth_error_ex ss (N.to_nat j)) as ([j' r] & Er); [lia|].
      rewrite (mix_card_eval _ _ _ _ _ _ (map_nth_error fst _ _ Ei) Ec (map_nth_error snd _ _ Er)). eauto.
    - exists s2. apply mix_ret. auto.
  Qed.

  Theorem mix_assert s ss : length s <> length ss -> mix s ss = AssertFail.
  Proof. intros NE. rewrite mix_eq_tabulate. destruct (Nat.eqb_spec (length s) (length ss)); [contradiction | reflexivity]. Qed.

  Theorem mix_ret_in_range s ss s2 : mix s ss = Ret s2 -> length s = length ss /\ in_range (length s) ss.
  Proof.
    intros M. apply mix_ret in M. destruct M as (L & T). split; [assumption|].
    apply Forall_forall. intros [j r0] Hin. apply In_nth_error in Hin. destruct Hin as (i & Ei).
    destruct (proj2 (tabulate_ret _ _ _ T) i) as (c' & C & _); [rewrite L; eapply nth_error_lt; eassumption|].
    apply mix_card_ret in C. destruct C as (j1 & r1 & c & j' & r & A & B & _).
    rewrite Ei in A. injection A as <- <-. apply nthN_spec in B. apply B.
  Qed.

  (* card types: an abstract opening that masking does not change (C01) *)
  Section Types.
    Variable T : Type.
    Variable open : card -> T.
    Hypothesis open_mask : forall c r, open (mask c r) = open c.

    Theorem mix_type_nth s ss s2 i : mix s ss = Ret s2 -> (i < length s)%nat -> (i < max_cards)%nat ->
      exists j r0 c, nth_error ss i = Some (j, r0) /\ nthN s j = Some c /\
                     nth_error (map open s2) i = Some (open c).
    Proof.
      intros M Hi Hm. destruct (mix_nth s ss s2 i M Hi Hm) as (j & r0 & c & j' & r & A & B & C & D).
      exists j, r0, c. repeat split; try assumption. rewrite nth_error_map, D. cbn. now rewrite open_mask.
    Qed.

    (* the multiset of card types is preserved: nothing duplicated, dropped or re-typed *)
    Theorem mix_types_perm s ss s2 : mix s ss = Ret s2 -> (length s <= max_cards)%nat ->
      Permutation (map fst ss) (iota (length s)) -> Permutation (map open s2) (map open s).
    Proof.
      intros M Hn P. pose proof (mix_length s ss s2 M Hn) as L2. pose proof (proj1 (proj1 (mix_ret s ss s2) M)) as L.
      apply reindex_perm with (js := map fst ss); [rewrite !map_length; congruence | | now rewrite map_length].
      intros i j x Ej Ex. apply nth_error_lt in Ej as Hi. rewrite map_length in Hi.
      destruct (mix_type_nth s ss s2 i M) as (j0 & r0 & c & A & B & C); try lia.
      rewrite nth_error_map, A in Ej. injection Ej as <-. rewrite C in Ex. injection Ex as <-. now rewrite nthN_map, B.
    Qed.
  End Types.
End Mix.

Lemma fold_push_firstn {A} (l : list A) : forall acc, (length acc <= max_cards)%nat ->
  fold_left stack_push l acc = firstn max_cards (acc ++ l).
Proof.
  induction l as [|x l IH]; intros acc H; cbn [fold_left].
  - rewrite app_nil_r. symmetry. apply firstn_all2. exact H.
  - unfold stack_push at 2. destruct (Nat.ltb_spec (length acc) max_cards) as [Lt|Ge].
    + rewrite IH by (rewrite app_length; cbn [length]; lia). now rewrite <- app_assoc.
    + rewrite IH by exact H. rewrite !firstn_app. replace (max_cards - length acc)%nat with O by lia. now rewrite !firstn_O.
Qed.

Theorem mix_into_ignores_old (card secret : Type) (mask : card -> secret -> card) old s ss :
  mix_into card secret mask old s ss = mix card secret mask s ss.
Proof.
  unfold mix_into, mix. destruct (negb _); [reflexivity|]. destruct (seq_res _); cbn [bind]; try reflexivity.
  f_equal. unfold stack_clear. apply fold_push_firstn. cbn [length]. lia.
Qed.

Lemma find_position_from_shift {A} (l : list (N * A)) i : forall pos,
  find_position_from pos l i = (pos + find_position_from 0 l i)%nat.
Proof.
  induction l as [|[j x] l IH]; intros pos; cbn; [lia|].
  destruct (j =? i); [lia|]. rewrite (IH (S pos)), (IH 1%nat). lia.
Qed.

Lemma find_position_cons {A} j (x : A) l i :
  find_position ((j, x) :: l) i = if j =? i then O else S (find_position l i).
Proof. unfold find_position. cbn. destruct (j =? i); [reflexivity|]. now rewrite find_position_from_shift. Qed.

Lemma find_position_le {A} (l : list (N * A)) i : (find_position l i <= length l)%nat.
Proof. induction l as [|[j x] l IH]; [cbn; lia|]. rewrite find_position_cons. destruct (j =? i); cbn; lia. Qed.

Lemma find_position_in {A} (l : list (N * A)) i : (find_position l i < length l)%nat <-> In i (map fst l).
Proof.
  induction l as [|[j x] l IH]; [cbn; split; [lia | tauto]|].
  rewrite find_position_cons. cbn [map fst In length]. destruct (N.eqb_spec j i) as [->|NE].
  - split; [auto | lia].
  - rewrite <- IH. split; [right|intros [E|H]; [contradiction|]]; lia.
Qed.

Lemma find_position_nth {A} (l : list (N * A)) i : (find_position l i < length l)%nat ->
  exists x, nth_error l (find_position l i) = Some (i, x).
Proof.
  induction l as [|[j x] l IH]; [cbn; lia|].
  rewrite find_position_cons. destruct (N.eqb_spec j i) as [->|NE]; cbn [length nth_error].
  - eauto.
  - intros H. apply IH. lia.
Qed.

Lemma find_position_NoDup {A} (l : list (N * A)) : forall b a, NoDup (map fst l) -> nth_error (map fst l) b = Some a ->
  find_position l a = b.
Proof.
  induction l as [|[j y] l IH]; intros [|b] a ND E; cbn in E; try discriminate.
  - injection E as ->. rewrite find_position_cons, N.eqb_refl. reflexivity.
  - rewrite find_position_cons. cbn [map fst] in ND. inversion ND as [|? ? Hnin ND']; subst.
    destruct (N.eqb_spec j a) as [->|NE].
    + exfalso. apply Hnin. apply nth_error_In in E. exact E.
    + f_equal. now apply IH.
Qed.

Section Glue.
  Variables card secret : Type.
  Variable mask : card -> secret -> card.
  Variable addsec : secret -> secret -> secret.
  Hypothesis mask_mask : forall c r1 r2, mask (mask c r1) r2 = mask c (addsec r1 r2).
  Notation mix := (mix card secret mask).
  Notation mix_card := (mix_card card secret mask).
  Notation glue := (glue secret addsec).
  Notation glue_entry := (glue_entry secret addsec).

  Lemma glue_eq_tabulate sigma pi :
    glue sigma pi = if negb (length sigma =? length pi)%nat then AssertFail else tabulate (glue_entry sigma pi) (length sigma).
  Proof. reflexivity. Qed.

  Lemma glue_ret sigma pi gam : glue sigma pi = Ret gam <->
    length sigma = length pi /\ tabulate (glue_entry sigma pi) (length sigma) = Ret gam.
  Proof. rewrite glue_eq_tabulate. apply assert_eq_ret. Qed.

  Lemma perm_iota_facts {A} (l : list (N * A)) n : Permutation (map fst l) (iota n) ->
    length l = n /\ NoDup (map fst l) /\ (forall i, (i < n)%nat -> In (N.of_nat i) (map fst l)) /\
    Forall (fun p => fst p < N.of_nat n) l.
  Proof.
    intros P. repeat split.
    - apply Permutation_length in P. now rewrite map_length, iota_length in P.
    - eapply Permutation_NoDup; [apply Permutation_sym; exact P | apply NoDup_iota].
    - intros i Hi. eapply Permutation_in; [apply Permutation_sym; exact P|]. apply in_iota. lia.
    - apply Forall_forall. intros p Hp. apply in_iota. eapply Permutation_in; [exact P|]. now apply in_map.
  Qed.

  Theorem glue_total sigma pi n : length sigma = n -> length pi = n -> Permutation (map fst sigma) (iota n) ->
    in_range secret n pi -> exists gam, glue sigma pi = Ret gam.
  Proof.
    intros Ls Lp P R. destruct (perm_iota_facts sigma n P) as (_ & _ & Hin & _).
    destruct (tabulate_total (glue_entry sigma pi) (length sigma)) as (gam & T).
    - intros i Hi. unfold ShuffleModel.glue_entry.
      assert (Hp : (find_position sigma (N.of_nat i) < length sigma)%nat) by (apply find_position_in, Hin; lia).
      destruct (Nat.ltb_spec (find_position sigma (N.of_nat i)) (length sigma)); [|lia]. cbn [negb].
      destruct (nth_error_ex sigma i Hi) as ([x r1] & ->). destruct (nth_error_ex pi i) as ([b z] & E3); [lia|].
      destruct (nth_error_ex pi (find_position sigma (N.of_nat i))) as ([y r2] & ->); [lia|]. rewrite E3.
      pose proof (in_range_nth _ _ _ _ _ _ R E3) as Hb. rewrite nthN_lt by lia.
      destruct (nth_error_ex sigma (N.to_nat b)) as ([a w] & ->); [lia|]. eauto.
    - exists gam. apply glue_ret. split; congruence.
  Qed.

  (* the index component of the glued secret is the composition, its secrets are the sums *)
  Theorem glue_nth sigma pi gam n i : glue sigma pi = Ret gam -> length sigma = n -> (n <= max_cards)%nat -> (i < n)%nat ->
    (exists b a, nth_error (map fst pi) i = Some b /\ nthN (map fst sigma) b = Some a /\ nth_error (map fst gam) i = Some a) /\
    (exists r1 r2, nth_error (map snd sigma) i = Some r1 /\ nth_error (map snd pi) (find_position sigma (N.of_nat i)) = Some r2 /\
                   nth_error (map snd gam) i = Some (addsec r1 r2)).
  Proof.
    intros G Ls Hn Hi. apply glue_ret in G. destruct G as (_ & T).
    destruct (proj2 (tabulate_ret _ _ _ T) i) as (e & H & E); [lia|]. unfold ShuffleModel.glue_entry in H.
    destruct (negb _); [discriminate|]. rewrite !nth_error_map, E by lia.
    destruct (nth_error sigma i) as [[x r1]|]; [|discriminate].
    destruct (nth_error pi (find_position sigma (N.of_nat i))) as [[y r2]|]; [|discriminate].
    destruct (nth_error pi i) as [[b z]|]; [|discriminate].
    destruct (nthN sigma b) as [[a w]|] eqn:E4; [|discriminate]. injection H as <-. split.
    - exists b, a. rewrite nthN_map, E4. auto.
    - exists r1, r2. auto.
  Qed.

  Theorem glue_length sigma pi gam : glue sigma pi = Ret gam -> (length sigma <= max_cards)%nat -> length gam = length sigma.
  Proof. intros G Hn. apply glue_ret in G. destruct G as (_ & T). apply tabulate_ret in T. destruct T as (L & _). lia. Qed.

  (* position by position: pi[i] = b, sigma[b] = a; the card s[a] is masked with sigma's secret at a and then with
     pi's secret at b, and b is where sigma holds a, which is where glue looks up the second summand *)
  Theorem glue_ok s sigma pi n : length s = n -> length sigma = n -> length pi = n -> (n <= max_cards)%nat ->
    Permutation (map fst sigma) (iota n) -> in_range secret n pi ->
    exists s1 gam s2, mix s sigma = Ret s1 /\ glue sigma pi = Ret gam /\ mix s1 pi = Ret s2 /\ mix s gam = Ret s2.
  Proof.
    intros Lc Ls Lp Hn P R.
    destruct (perm_iota_facts sigma n P) as (_ & ND & _ & Rs).
    destruct (mix_total card secret mask s sigma) as (s1 & M1); [congruence | now rewrite Lc|].
    assert (L1 : length s1 = n) by (rewrite (mix_length _ _ _ _ _ _ M1); lia).
    destruct (mix_total card secret mask s1 pi) as (s2 & M2); [congruence | now rewrite L1|].
    destruct (glue_total sigma pi n Ls Lp P R) as (gam & G).
    assert (Lg : length gam = n) by (rewrite (glue_length _ _ _ G); lia).
    exists s1, gam, s2. repeat split; try assumption.
    rewrite <- M2, !mix_eq_tabulate, Lc, L1, Lg, Lp. destruct (negb _); [reflexivity|].
    apply tabulate_ext. intros i Hi.
    destruct (proj1 (glue_nth sigma pi gam n i G Ls Hn Hi)) as (b & a & G1 & G2 & G3).
    apply nthN_spec in G2. destruct G2 as (Hb & G2). rewrite map_length in Hb.
    apply nth_error_In in G2 as Ha. apply (Permutation_in _ P), in_iota in Ha.
    destruct (proj2 (glue_nth sigma pi gam n (N.to_nat a) G Ls Hn ltac:(lia))) as (r & t & K1 & K2 & K3).
    rewrite N2Nat.id, (find_position_NoDup sigma (N.to_nat b) a ND G2) in K2.
    destruct (nth_error_ex s (N.to_nat a)) as (c & Ec); [lia|].
    destruct (mix_at _ _ _ s sigma s1 (N.to_nat b) M1) as (c1 & C & E1); try lia.
    rewrite (mix_card_eval _ _ _ _ _ _ _ _ _ G2 Ec K1) in C. injection C as <-.
    rewrite (mix_card_eval _ _ _ _ _ _ _ _ _ G3 Ec K3), (mix_card_eval _ _ _ _ _ _ _ _ _ G1 E1 K2).
    f_equal. symmetry. apply mask_mask.
  Qed.

  Theorem glue_perm sigma pi gam n : glue sigma pi = Ret gam -> (n <= max_cards)%nat ->
    Permutation (map fst sigma) (iota n) -> Permutation (map fst pi) (iota n) -> Permutation (map fst gam) (iota n).
  Proof.
    intros G Hn Ps Pp.
    destruct (perm_iota_facts sigma n Ps) as (Ls & _). destruct (perm_iota_facts pi n Pp) as (Lp & _).
    pose proof (glue_length _ _ _ G ltac:(lia)) as Lg.
    apply Permutation_trans with (map fst sigma); [|exact Ps].
    apply reindex_perm with (js := map fst pi); [rewrite !map_length; congruence | | now rewrite map_length, Ls].
    intros i b a Eb Ea. apply nth_error_lt in Eb as Hi. rewrite map_length in Hi.
    destruct (proj1 (glue_nth sigma pi gam n i G Ls Hn ltac:(lia))) as (b' & a' & G1 & G2 & G3). congruence.
  Qed.
End Glue.

Lemma perm_check_spec {A} (l : list (N * A)) n :
  perm_check l (N.of_nat n) = true <-> forall i, (i < n)%nat -> (find_position l (N.of_nat i) < n)%nat.
Proof.
  unfold perm_check. rewrite Nat2N.id, forallb_forall. split.
  - intros H i Hi. specialize (H i ltac:(apply in_seq; lia)). lia.
  - intros H i Hi. apply in_seq in Hi. specialize (H i ltac:(lia)). lia.
Qed.

(* a fresh object (the whole vector was just read): accepted exactly when the indices are a bijection on {0..n-1} *)
Theorem import_check_iff {A} (l : list (N * A)) :
  perm_check l (N.of_nat (length l)) = true <-> Permutation (map fst l) (iota (length l)).
Proof.
  rewrite perm_check_spec. split.
  - intros H. apply Permutation_sym. apply NoDup_Permutation_bis.
    + apply NoDup_iota.
    + rewrite map_length, iota_length. lia.
    + intros x Hx. apply in_iota in Hx. apply find_position_in.
      specialize (H (N.to_nat x) ltac:(lia)). now rewrite N2Nat.id in H.
  - intros P i Hi. apply find_position_in. now apply (perm_iota_facts l _ P).
Qed.

Lemma read_pairs_length size : forall k s ps r, read_pairs size k s = Some (ps, r) -> length ps = k.
Proof.
  induction k as [|k IH]; intros s ps r; cbn [read_pairs].
  - intros E. injection E as <- <-. reflexivity.
  - destruct (field s hat) as [[f r0]|]; [|discriminate].
    destruct (strtoul_full f) as [idx|]; [|discriminate].
    destruct (idx <? size); [|discriminate].
    destruct (field r0 hat) as [[g r1]|]; [|discriminate].
    destruct (import_vsecret g) as [sec|]; [|discriminate].
    destruct (read_pairs size k r1) as [[ps' r2]|] eqn:E; [|discriminate].
    intros E'. injection E' as <- <-. cbn. f_equal. eapply IH. exact E.
Qed.

Theorem import_accepts_only_bijections t ss : import_vstacksecret [] t = Some ss ->
  Permutation (map fst ss) (iota (length ss)) /\ (1 <= length ss <= max_cards)%nat.
Proof.
  unfold import_vstacksecret. destruct (cm t magic_sts hat) as [r0|]; [|discriminate].
  unfold import_size. destruct (field r0 hat) as [[f r]|]; [|discriminate].
  destruct (strtoul_full f) as [v|]; [|discriminate].
  destruct ((1 <=? v) && (v <=? Z.to_N TMCG_MAX_CARDS)) eqn:HB; [|discriminate].
  apply andb_true_iff in HB. destruct HB as [H1 H2]. apply N.leb_le in H1, H2.
  destruct (read_pairs v (N.to_nat v) r) as [[ps rest]|] eqn:RP; [|discriminate].
  cbn [app]. destruct (perm_check ps v) eqn:PC; [|discriminate].
  intros E. injection E as <-. apply read_pairs_length in RP.
  split.
  - apply import_check_iff. rewrite RP, N2Nat.id. exact PC.
  - rewrite RP. unfold max_cards. lia.
Qed.

Theorem import_refuses_non_bijections t r0 n r1 ps rest :
  cm t magic_sts hat = Some r0 -> import_size r0 = Some (n, r1) -> read_pairs n (N.to_nat n) r1 = Some (ps, rest) ->
  ~ Permutation (map fst ps) (iota (N.to_nat n)) -> import_vstacksecret [] t = None.
Proof.
  intros C S RP NP. unfold import_vstacksecret. rewrite C, S, RP. cbn [app].
  destruct (perm_check ps n) eqn:PC; [|reflexivity]. exfalso. apply NP.
  pose proof (read_pairs_length _ _ _ _ _ RP) as L. rewrite <- L. apply import_check_iff. now rewrite L, N2Nat.id.
Qed.

Lemma masking_value_loop_spec q : forall fuel s v r, masking_value_loop fuel q s = Ret (v, r) -> (2 <= v < Z.abs q)%Z.
Proof.
  induction fuel as [|fuel IH]; intros s v r; cbn [masking_value_loop]; [discriminate|].
  destruct (grandomm q s) as [[v0 r0]| | | | |] eqn:G; cbn [bind fst snd]; try discriminate.
  destruct (Z.eqb_spec v0 0); cbn [orb]; [apply IH|].
  destruct (Z.eqb_spec v0 1); [apply IH|].
  intros E. injection E as <- <-. apply grandomm_range in G. lia.
Qed.

Lemma masking_values_spec q : forall k s vs r, masking_values k q s = Ret (vs, r) ->
  length vs = k /\ Forall (fun v => 2 <= v < Z.abs q)%Z vs.
Proof.
  induction k as [|k IH]; intros s vs r; cbn [masking_values].
  - intros E. injection E as <- <-. split; [reflexivity | constructor].
  - intros E. apply bind_ret in E as ([v r0] & M & E). apply bind_ret in E as ([vs' r1] & MS & E).
    injection E as <- <-. apply IH in MS. destruct MS as (L & F).
    apply masking_value_loop_spec in M. split; [cbn; now rewrite L | now constructor].
Qed.

Lemma masked_perm q n pi s vs s' : masking_values n q s = Ret (vs, s') -> Permutation (iota n) pi ->
  map fst (combine pi vs) = pi /\ length (combine pi vs) = n /\ Permutation (map fst (combine pi vs)) (iota n) /\
  Forall (fun p => 2 <= snd p < Z.abs q)%Z (combine pi vs).
Proof.
  intros MS P. apply masking_values_spec in MS. destruct MS as (Lv & Fv).
  assert (Lpi : length pi = n) by (apply Permutation_length in P; now rewrite iota_length in P).
  rewrite combine_length, map_fst_combine by congruence. repeat split; [lia | now apply Permutation_sym|].
  apply Forall_forall. intros [a v] Hin. apply in_combine_r in Hin. rewrite Forall_forall in Fv. now apply Fv.
Qed.

(* every freshly generated stack secret contains a bijection; a requested rotation is a cyclic shift whose
   offset is the returned value; all card secrets are in [2, q) *)
Theorem create_stack_secret_spec cyclic n q s o ss s' : create_stack_secret cyclic n q s = Ret ((o, ss), s') ->
  (n <= max_cards)%nat /\ length ss = n /\ Permutation (map fst ss) (iota n) /\
  Forall (fun p => 2 <= snd p < Z.abs q)%Z ss /\
  (if cyclic then (2 <= n)%nat /\ exists r, r < N.of_nat n /\ map fst ss = rotation n r /\ o = rotation_offset n r
   else (1 <= n)%nat /\ o = 0).
Proof.
  unfold create_stack_secret. destruct (Nat.ltb_spec max_cards n) as [|Hn]; [discriminate|]. intros E.
  apply bind_ret in E as ([[o1 pi] s1] & G & E). apply bind_ret in E as ([vs s2] & MS & E). injection E as <- <- <-.
  cbn [fst snd] in *.
  destruct cyclic.
  - apply random_rotation_spec in G. destruct G as (H2 & r & Hr & -> & ->).
    destruct (masked_perm _ _ _ _ _ _ MS (rotation_perm n r (max_cards_small n Hn) Hr)) as (Ef & L & P & F).
    rewrite Ef in P |- *. repeat split; try assumption. exists r. auto.
  - apply bind_ret in G as ([pi0 s0] & G & E). injection E as <- <- <-.
    destruct (masked_perm _ _ _ _ _ _ MS (random_permutation_fast_perm _ _ _ _ G)) as (_ & L & P & F).
    repeat split; try assumption. destruct n; [discriminate G | lia].
Qed.

Theorem vmask_vmask p q g h c r1 r2 : (1 < p)%Z -> (0 < q)%Z -> powm g q p = 1%Z -> powm h q p = 1%Z ->
  (0 <= r1)%Z -> (0 <= r2)%Z -> vmask p g h (vmask p g h c r1) r2 = vmask p g h c (vadd q r1 r2).
Proof.
  intros Hp Hq Hg Hh H1 H2. unfold vmask, vadd. cbn [fst snd].
  rewrite (powm_mod_order p q g Hp Hq Hg), (powm_mod_order p q h Hp Hq Hh), !powm_add by lia.
  f_equal; mod_ring p.
Qed.

Theorem qmask_qmask m y z s1 s2 : (0 < m)%Z -> qmask m y (qmask m y z s1) s2 = qmask m y z (qadd m y s1 s2).
Proof.
  intros Hm. destruct s1 as [r1 [|]], s2 as [r2 [|]]; unfold qmask, qadd; cbn [fst snd andb xorb];
    mod_ring m.
Qed.

(* glue_ok instantiated for the VTMF encoding; the exponents are the non-negative integers (type N), which is
   what MaskingValue and the glue produce *)
Definition vmaskN (p g h : Z) (c : Z * Z) (r : N) : Z * Z := vmask p g h c (Z.of_N r).
Definition vaddN (q : Z) (r1 r2 : N) : N := Z.to_N (vadd q (Z.of_N r1) (Z.of_N r2)).

Lemma vmaskN_vmaskN p q g h : (1 < p)%Z -> (0 < q)%Z -> powm g q p = 1%Z -> powm h q p = 1%Z ->
  forall c r1 r2, vmaskN p g h (vmaskN p g h c r1) r2 = vmaskN p g h c (vaddN q r1 r2).
Proof.
  intros Hp Hq Hg Hh c r1 r2. unfold vmaskN, vaddN. rewrite Z2N.id.
  - apply vmask_vmask; try assumption; lia.
  - unfold vadd. apply Z.mod_pos_bound. assumption.
Qed.

Theorem vtmf_glue_ok p q g h : (1 < p)%Z -> (0 < q)%Z -> powm g q p = 1%Z -> powm h q p = 1%Z ->
  forall s sigma pi n, length s = n -> length sigma = n -> length pi = n -> (n <= max_cards)%nat ->
  Permutation (map fst sigma) (iota n) -> in_range N n pi ->
  exists s1 gam s2, mix (Z * Z) N (vmaskN p g h) s sigma = Ret s1 /\ glue N (vaddN q) sigma pi = Ret gam /\
                    mix (Z * Z) N (vmaskN p g h) s1 pi = Ret s2 /\ mix (Z * Z) N (vmaskN p g h) s gam = Ret s2.
Proof.
  intros Hp Hq Hg Hh. apply glue_ok. now apply vmaskN_vmaskN.
Qed.
