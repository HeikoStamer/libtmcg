(* C13 -- Point-to-point channels deliver intact, in order, exactly once.
   Each property theorem is closed by `exact <lemma>` and followed by Print Assumptions; the examples at the end are
   non-vacuity witnesses on the toy link of AioToy.v.
   The model (AioModel.v) is one link of aiounicast_select / aiounicast_nonblock; MAC and cipher are the record P : prims,
   idealised by prims_ok P (MAC has fixed length; decrypt inverts encrypt on a handle with the same history; the cipher
   is length preserving).  Unforgeability appears as the premise `no_forgery` about the byte stream under attack. *)
From Coq Require Import ZArith NArith List Bool Lia.
From LT Require Import gen_Consts CodecModel AioModel AioLemmas AioRoundtrip AioIntegrity AioProgress AioFits AioTheorems AioToy.
Import ListNotations.
Local Open Scope Z_scope.

(* however the transport splits, coalesces or delays the byte stream and whenever Receive is called: what has been
   delivered, followed by what the receiver state and the unread bytes still mean, is what the concatenated stream means *)
Theorem C13_frag_invariance : forall P c nonce evs os st pipe, (0 < blklen P)%nat ->
  run P c nonce rstate0 [] evs = (os, st, pipe) ->
  stream_deliveries P c nonce rstate0 (fed evs) = delivered os ++ stream_deliveries P c nonce st pipe.
Proof. exact frag_invariance. Qed.
Print Assumptions C13_frag_invariance.

Theorem C13_frag_same_stream : forall P c nonce evs1 evs2 os1 st1 p1 os2 st2 p2, (0 < blklen P)%nat ->
  fed evs1 = fed evs2 ->
  run P c nonce rstate0 [] evs1 = (os1, st1, p1) -> run P c nonce rstate0 [] evs2 = (os2, st2, p2) ->
  delivered os1 ++ stream_deliveries P c nonce st1 p1 = delivered os2 ++ stream_deliveries P c nonce st2 p2.
Proof. exact frag_same_stream. Qed.
Print Assumptions C13_frag_same_stream.

(* every sequence of integers accepted for sending (send_all = Some ...: Send returned true for each), every mode
   {auth} x {encr} x {chunked} x {select, nonblock}, every fragmentation and call schedule: delivered so far ++ still
   to come = the sequence sent -- unchanged, in order, exactly once *)
Theorem C13_channel_roundtrip : forall P c iv ms w sst evs os st pipe,
  prims_ok P -> length iv = blklen P ->
  send_all P c iv (sstate0 c iv) ms = Some (w, sst) ->
  fed evs = w ->
  run P c iv rstate0 [] evs = (os, st, pipe) ->
  delivered os ++ stream_deliveries P c iv st pipe = ms.
Proof. exact channel_roundtrip. Qed.
Print Assumptions C13_channel_roundtrip.

(* ... and when the receiver has read everything and holds no complete record, all of them HAVE been delivered *)
Theorem C13_roundtrip_complete : forall P c iv ms w sst evs os st,
  prims_ok P -> length iv = blklen P ->
  send_all P c iv (sstate0 c iv) ms = Some (w, sst) ->
  fed evs = w ->
  run P c iv rstate0 [] evs = (os, st, []) ->
  first_record (eff_maclen P c) (r_buf st) = None ->
  delivered os = ms.
Proof. exact roundtrip_complete. Qed.
Print Assumptions C13_roundtrip_complete.

(* progress: keep calling Receive -- after more than mu = 3|pipe| + |buf| + flag further calls nothing is left undelivered,
   unless the receive buffer is full of bytes without a complete record while more wait ("read buffer exceeded") *)
Theorem C13_eventually_settled : forall P c nonce evs os st pipe n os2 st2 p2, (0 < blklen P)%nat ->
  run P c nonce rstate0 [] evs = (os, st, pipe) ->
  (mu st pipe < n)%nat ->
  run P c nonce st pipe (repeat Call n) = (os2, st2, p2) ->
  stream_deliveries P c nonce st2 p2 = [] \/ stuck P c st2 p2.
Proof. exact eventually_settled. Qed.
Print Assumptions C13_eventually_settled.

(* an honest stream never gets there: every record an accepted Send writes is at most rec_bound P bytes
   (Send refuses integers with 2*size >= buf_in_size; 3465 <= 4096 for HMAC-SHA256 / AES), so the bytes buffered without a
   complete record are always a proper prefix of one record -- link_fits P is the numeric side condition *)
Theorem C13_record_fits : forall P c iv,
  (forall x, length (mac P x) = maclen P) -> (forall h p, length (c_enc P h p) = length p) ->
  (forall h p, isbytes p -> isbytes (c_enc P h p)) ->
  forall st m w st', 0 <= s_chunk st -> send P c iv st m = Some (w, st') ->
  blen w <= (if encr c && negb (s_iv_sent st) then blen iv else 0) + rec_bound P.
Proof. exact send_len. Qed.
Print Assumptions C13_record_fits.

Theorem C13_honest_never_stuck : forall P c iv ms w sst evs os st pipe,
  prims_ok P -> link_fits P -> length iv = blklen P ->
  send_all P c iv (sstate0 c iv) ms = Some (w, sst) ->
  fed evs = w ->
  run P c iv rstate0 [] evs = (os, st, pipe) ->
  ~ stuck P c st pipe.
Proof. exact honest_never_stuck. Qed.
Print Assumptions C13_honest_never_stuck.

(* ... hence every accepted sequence IS delivered: completely, exactly once, in order, after any fragmentation and any
   call pattern, once Receive has been called more than mu times after the last byte arrived *)
Theorem C13_roundtrip_eventually : forall P c iv ms w sst evs os st pipe n os2 st2 p2,
  prims_ok P -> link_fits P -> length iv = blklen P ->
  send_all P c iv (sstate0 c iv) ms = Some (w, sst) ->
  fed evs = w ->
  run P c iv rstate0 [] evs = (os, st, pipe) ->
  (mu st pipe < n)%nat ->
  run P c iv st pipe (repeat Call n) = (os2, st2, p2) ->
  delivered os ++ delivered os2 = ms.
Proof. exact roundtrip_eventually. Qed.
Print Assumptions C13_roundtrip_eventually.

Theorem C13_stream_roundtrip : forall P c iv ms w sst,
  prims_ok P -> length iv = blklen P ->
  send_all P c iv (sstate0 c iv) ms = Some (w, sst) ->
  stream_deliveries P c iv rstate0 w = ms.
Proof. exact stream_roundtrip. Qed.
Print Assumptions C13_stream_roundtrip.

(* a negative integer cannot be represented with the length-hiding offset: Send refuses it on an encrypted link
   (None = returns false, nothing on the wire, sender state unchanged; aiounicast_select.cc:346) -- so every integer ACCEPTED there
   is non-negative and the round-trip theorems above need no sign premise *)
Theorem C13_negative_encrypted_refused : forall P c iv st m, encr c = true -> m < 0 -> send P c iv st m = None.
Proof. exact negative_encrypted_refused. Qed.
Print Assumptions C13_negative_encrypted_refused.

Theorem C13_accepted_nonnegative : forall P c iv ms st w st', encr c = true ->
  send_all P c iv st ms = Some (w, st') -> Forall (fun m => 0 <= m) ms.
Proof. exact accepted_nonnegative. Qed.
Print Assumptions C13_accepted_nonnegative.

(* a delivery under authentication needs the tag MAC(line || newline || sequence number) on the wire *)
Theorem C13_accept_needs_tag : forall P c nonce k line tag m k', auth c = true ->
  process_record P c nonce k line tag = (Deliver m, k') ->
  tag = mac P (line ++ c_nl :: encode62 (k_sqn k)).
Proof. exact accept_needs_tag. Qed.
Print Assumptions C13_accept_needs_tag.

(* line || newline || number determines the line and the number (the MAC input binds the sequence number) *)
Theorem C13_mac_input_injective : forall a b x y, Forall (fun c => c <> c_nl) a -> Forall (fun c => c <> c_nl) b ->
  a ++ c_nl :: x = b ++ c_nl :: y -> a = b /\ x = y.
Proof. exact app_nl_inj. Qed.
Print Assumptions C13_mac_input_injective.

(* integrity, every mode with authentication: for ANY bytes s behind the IV that contain no MAC forgery (no_forgery:
   every (line, tag) in s whose tag verifies for some sequence number was computed by the sender for that number),
   and any schedule, the values delivered are a prefix of the values sent: nothing modified, inserted, replayed,
   reordered, and nothing delivered after a removed message.  The IV of a CFB link must be intact (it is not covered by
   the MAC: C13_integrity_iv_tamper_refuted below); on a CTR link any block may stand in its place. *)
Theorem C13_channel_integrity : forall P c iv iv' ms recs s evs os st pipe,
  prims_ok P -> length iv = blklen P -> length iv' = blklen P -> (ctr_mode c = false -> iv' = iv) ->
  auth c = true ->
  trace P c iv (sstate0 c iv) ms recs -> no_forgery P 1 recs s ->
  fed evs = (if encr c then iv' else []) ++ s ->
  run P c iv rstate0 [] evs = (os, st, pipe) ->
  delivered os = firstn (length (delivered os)) ms.
Proof. exact channel_integrity. Qed.
Print Assumptions C13_channel_integrity.

Theorem C13_stream_integrity : forall P c iv iv' ms recs s,
  prims_ok P -> length iv = blklen P -> length iv' = blklen P -> (ctr_mode c = false -> iv' = iv) ->
  auth c = true ->
  trace P c iv (sstate0 c iv) ms recs -> no_forgery P 1 recs s ->
  exists n, stream_deliveries P c iv rstate0 ((if encr c then iv' else []) ++ s) = firstn n ms.
Proof. exact stream_integrity. Qed.
Print Assumptions C13_stream_integrity.

(* links without encryption have no IV: integrity with no premise about one *)
Theorem C13_channel_integrity_auth_only : forall P c iv ms recs evs os st pipe,
  prims_ok P -> auth c = true -> encr c = false ->
  trace P c iv (sstate0 c iv) ms recs -> no_forgery P 1 recs (fed evs) ->
  run P c iv rstate0 [] evs = (os, st, pipe) ->
  delivered os = firstn (length (delivered os)) ms.
Proof. exact channel_integrity_auth_only. Qed.
Print Assumptions C13_channel_integrity_auth_only.

(* the 'IV intact' premise of C13_channel_integrity cannot be dropped on an encrypted stream-mode link (known finding
   tamper-iv): "only the IV block replaced, every record untouched => deliveries are a prefix of what was sent" is
   REFUTED; witness (toy cipher with a CFB-like register, sent 5,7,9, IV [3;9] -> [4;9]): delivered 7,9 -- the first
   message is dropped unnoticed, the later ones are delivered *)
Theorem C13_integrity_iv_tamper_refuted : ~ iv_free_integrity.
Proof. exact iv_tamper_refuted. Qed.
Print Assumptions C13_integrity_iv_tamper_refuted.

Theorem C13_iv_tamper_witness :
  send_all toyP toy_c [3; 9]%N (sstate0 toy_c [3; 9]%N) [5; 7; 9] <> None /\
  stream_deliveries toyP toy_c [3; 9]%N rstate0 ([3; 9]%N ++ skipn 2 toy_w) = [5; 7; 9] /\
  stream_deliveries toyP toy_c [3; 9]%N rstate0 ([4; 9]%N ++ skipn 2 toy_w) = [7; 9].
Proof. exact iv_tamper_witness. Qed.
Print Assumptions C13_iv_tamper_witness.

(* the trace premise is satisfiable for every accepted session *)
Theorem C13_trace_exists : forall P c iv, prims_ok P -> forall ms st w st', 0 <= s_chunk st ->
  send_all P c iv st ms = Some (w, st') -> exists recs, trace P c iv st ms recs.
Proof. exact trace_exists. Qed.
Print Assumptions C13_trace_exists.

Example C13_nonvacuous_prims : prims_ok toyP /\ link_fits toyP.
Proof. exact (conj toy_prims_ok toy_link_fits). Qed.
Definition toy_wire (c : cfg) (ms : list Z) : bytes :=
  match send_all toyP c [3; 9]%N (sstate0 c [3; 9]%N) ms with Some (w, _) => w | None => [] end.
Definition toy_msgs : list Z := [0; 5; 2 ^ 256; 4242424242].

(* the sessions are accepted in stream, chunked and nonblock modes with authentication and encryption, and with
   authentication alone ... *)
Example C13_nonvacuous_accept :
  forall c, In c [cfg_of true true false false; cfg_of true true true false; cfg_of true true true true; cfg_of true false false false] ->
  exists w sst, send_all toyP c [3; 9]%N (sstate0 c [3; 9]%N) toy_msgs = Some (w, sst).
Proof.
  intros c H. unfold toy_msgs. cbn [In] in H. destruct H as [<-|[<-|[<-|[<-|[]]]]].
  3: exact toy_accepts_nonblock.
  all: apply (toy_delivers_accepts _ _ toy_schedule), toy_sessions; cbn [In]; auto.
Qed.

(* ... and a schedule that splits inside the IV and inside a tag delivers them all and ends settled *)
Example C13_example_run :
  forall c, In c [cfg_of true true false false; cfg_of true true true false; cfg_of false true false true; cfg_of true false false false] ->
  let w := toy_wire c toy_msgs in
  let '(os, st, pipe) := run toyP c [3; 9]%N rstate0 []
         ([Feed (firstn 1 w); Call; Call; Feed (firstn 60 (skipn 1 w)); Call; Call; Feed (skipn 61 w)] ++ repeat Call 12) in
  delivered os = toy_msgs /\ pipe = [] /\ r_buf st = [].
Proof.
  intros c H. pose proof (toy_sessions c H) as T. unfold toy_delivers, toy_schedule in T. unfold toy_wire, toy_msgs.
  destruct (send_all toyP c [3; 9]%N (sstate0 c [3; 9]%N) [0; 5; 2 ^ 256; 4242424242]) as [[w sst]|]; [exact T|contradiction].
Qed.

(* negative integers are accepted and delivered on a link without encryption, refused with it *)
Example C13_negative_plain_accepted :
  let c := cfg_of true false false false in
  delivered (fst (fst (run toyP c [3; 9]%N rstate0 [] ([Feed (toy_wire c [-5; 7])] ++ repeat Call 6)))) = [-5; 7].
Proof. vm_compute. reflexivity. Qed.
Example C13_negative_encrypted_refused_example :
  send toyP (cfg_of true true false false) [3; 9]%N (sstate0 (cfg_of true true false false) [3; 9]%N) (-5) = None.
Proof. apply negative_encrypted_refused; reflexivity. Qed.
