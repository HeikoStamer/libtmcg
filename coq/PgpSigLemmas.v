(* C20 -- proofs about the signature / encryption framing model (PgpSigModel.v) *)
From Coq Require Import ZArith NArith List Bool Lia ZifyBool ZifyN.
From LT Require Import PgpCodecModel PgpCodecLemmas PgpSigModel.
Import ListNotations.
Local Open Scope N_scope.

Lemma be2_inj a b : a < 65536 -> b < 65536 -> be2 a = be2 b -> a = b.
Proof. rewrite !be2_bytes. apply (be_bytes_inj 2). Qed.
Lemma be4_inj a b : a < 4294967296 -> b < 4294967296 -> be4 a = be4 b -> a = b.
Proof. rewrite !be4_bytes. apply (be_bytes_inj 4). Qed.
Lemma be8_inj a b : a < 18446744073709551616 -> b < 18446744073709551616 -> be8 a = be8 b -> a = b.
Proof. rewrite !be8_bytes. apply (be_bytes_inj 8). Qed.
Lemma be4_length v : length (be4 v) = 4%nat. Proof. reflexivity. Qed.
Lemma be2_length v : length (be2 v) = 2%nat. Proof. reflexivity. Qed.
Lemma be8_length v : length (be8 v) = 8%nat. Proof. reflexivity. Qed.

Lemma len_eq_length (a b : list N) : len a = len b -> length a = length b.
Proof. intro H. now rewrite <- !to_nat_len, H. Qed.

(* a string followed by a fixed-width field with its length: both are determined, and so is what precedes them *)
Lemma len_suffixed_inj (enc : N -> list N) (m s1 s2 t1 t2 : list N) :
  length (enc (len t1)) = length (enc (len t2)) -> (enc (len t1) = enc (len t2) -> len t1 = len t2) ->
  s1 ++ t1 ++ m ++ enc (len t1) = s2 ++ t2 ++ m ++ enc (len t2) -> t1 = t2 /\ s1 = s2.
Proof.
  intros Hl Hi H. rewrite !(app_assoc _ m), !(app_assoc _ (_ ++ m)) in H.
  apply app_inj_len_r in H as [H He]; [|assumption].
  apply Hi, len_eq_length in He. rewrite !app_assoc in H.
  apply app_inj_len_r in H as [H _]; [|reflexivity]. apply app_inj_len_r in H as [Hs Ht]; now try split.
Qed.

(* the hashed octets determine the trailer (version, type, algorithms, hashed subpackets) and the signed octets *)
Theorem hash_input_v4_inj : forall o1 o2 t1 t2, len t1 < 4294967296 -> len t2 < 4294967296 ->
  hash_input_v4 o1 t1 = hash_input_v4 o2 t2 -> t1 = t2 /\ signed_octets_v4 o1 = signed_octets_v4 o2.
Proof. intros o1 o2 t1 t2 H1 H2. apply (len_suffixed_inj be4 [4; 255]); [reflexivity|now apply be4_inj]. Qed.

Theorem hash_input_v5_inj : forall o1 o2 t1 t2, len t1 < 18446744073709551616 -> len t2 < 18446744073709551616 ->
  hash_input_v5 o1 t1 = hash_input_v5 o2 t2 -> t1 = t2 /\ signed_octets_v5 o1 = signed_octets_v5 o2.
Proof. intros o1 o2 t1 t2 H1 H2. apply (len_suffixed_inj be8 [5; 255]); [reflexivity|now apply be8_inj]. Qed.

(* every field of the trailer is recovered: a change of type, algorithm or any hashed subpacket octet changes it *)
Theorem sig_trailer_v4_inj : forall ty1 pk1 h1 hs1 ty2 pk2 h2 hs2,
  sig_trailer_v4 ty1 pk1 h1 hs1 = sig_trailer_v4 ty2 pk2 h2 hs2 -> ty1 = ty2 /\ pk1 = pk2 /\ h1 = h2 /\ hs1 = hs2.
Proof.
  unfold sig_trailer_v4. intros * H.
  assert (E : be2 (len hs1) ++ hs1 = be2 (len hs2) ++ hs2) by congruence.
  apply app_inj_len_l in E as [_ E]; [|reflexivity]. repeat split; congruence.
Qed.

Lemma key_frame_v4_inj k1 k2 r1 r2 : len k1 < 65536 -> len k2 < 65536 ->
  key_frame_v4 k1 ++ r1 = key_frame_v4 k2 ++ r2 -> k1 = k2 /\ r1 = r2.
Proof.
  unfold key_frame_v4. intros H1 H2 H. rewrite <- !app_comm_cons, <- !app_assoc in H.
  apply (f_equal (@tl N)), app_inj_len_l in H as [Hb H]; [|reflexivity].
  apply be2_inj, len_eq_length in Hb; try assumption. now apply app_inj_len_l in H.
Qed.

(* certifications bind key and user ID; bindings bind both keys (key bodies are shorter than 2^16 octets) *)
Theorem signed_octets_cert_inj : forall k1 u1 k2 u2, len k1 < 65536 -> len k2 < 65536 ->
  signed_octets_v4 (SoCertUid k1 u1) = signed_octets_v4 (SoCertUid k2 u2) -> k1 = k2 /\ u1 = u2.
Proof.
  intros k1 u1 k2 u2 H1 H2 H. cbn [signed_octets_v4] in H.
  apply key_frame_v4_inj in H as [Hk Hr]; try assumption. split; [assumption|].
  now apply (f_equal (@tl N)), app_inj_len_l in Hr.
Qed.

Theorem signed_octets_subkey_inj : forall p1 s1 p2 s2,
  len p1 < 65536 -> len p2 < 65536 -> len s1 < 65536 -> len s2 < 65536 ->
  signed_octets_v4 (SoSubkey p1 s1) = signed_octets_v4 (SoSubkey p2 s2) -> p1 = p2 /\ s1 = s2.
Proof.
  intros p1 s1 p2 s2 H1 H2 H3 H4 H. cbn [signed_octets_v4] in H.
  apply key_frame_v4_inj in H as [Hk Hr]; try assumption. split; [assumption|].
  rewrite <- (app_nil_r (key_frame_v4 s1)), <- (app_nil_r (key_frame_v4 s2)) in Hr.
  now apply key_frame_v4_inj in Hr as [? _].
Qed.

(* a user ID certification and a user attribute certification never hash the same octets *)
Theorem signed_octets_uid_uat_distinct : forall k1 u1 k2 u2, len k1 < 65536 -> len k2 < 65536 ->
  signed_octets_v4 (SoCertUid k1 u1) <> signed_octets_v4 (SoCertUat k2 u2).
Proof.
  intros k1 u1 k2 u2 H1 H2 H. cbn [signed_octets_v4] in H.
  apply key_frame_v4_inj in H as [_ Hr]; try assumption. discriminate.
Qed.

(* canonical text: the output is canonical, canonical text is left unchanged (so binary and text signatures hash the
   same octets exactly for documents whose line ends are all CR LF) *)
Lemma text_canon_from_canonical last d : crlf_okb last (text_canon_from last d) = true.
Proof.
  revert last. induction d as [|c r IH]; intro last; [reflexivity|]. cbn [text_canon_from].
  destruct (N.eqb_spec c 10) as [->|Hc]; cbn [andb].
  - destruct (N.eqb_spec last 13) as [->|Hl]; cbn [negb app crlf_okb N.eqb Pos.eqb orb andb]; [apply IH|].
    rewrite IH. destruct (last =? 13); reflexivity.
  - cbn [app crlf_okb]. replace (c =? 10) with false by lia. cbn [negb orb andb]. apply IH.
Qed.
Theorem text_canon_canonical : forall d, canonical_text (text_canon d) = true.
Proof. intro d. apply text_canon_from_canonical. Qed.

Lemma text_canon_from_fixed last d : crlf_okb last d = true -> text_canon_from last d = d.
Proof.
  revert last. induction d as [|c r IH]; intros last H; [reflexivity|]. cbn [crlf_okb text_canon_from] in *.
  apply andb_true_iff in H as [H1 H2]. rewrite (IH c H2).
  destruct (c =? 10); cbn [negb orb andb] in *; [rewrite H1; reflexivity|reflexivity].
Qed.
Theorem text_canon_fixed : forall d, canonical_text d = true -> text_canon d = d.
Proof. intro d. apply text_canon_from_fixed. Qed.

Theorem text_canon_idem : forall d, text_canon (text_canon d) = text_canon d.
Proof. intro d. apply text_canon_fixed, text_canon_canonical. Qed.

(* version 3 document signatures: five fixed trailer octets, the hashed octets still determine data, type and time *)
Theorem hash_input_v3_doc_inj : forall d1 d2 ty1 ty2 t1 t2, t1 < 4294967296 -> t2 < 4294967296 ->
  hash_input_v3 (SoBinary d1) (sig_trailer_v3 ty1 t1) = hash_input_v3 (SoBinary d2) (sig_trailer_v3 ty2 t2) ->
  d1 = d2 /\ ty1 = ty2 /\ t1 = t2.
Proof.
  intros d1 d2 ty1 ty2 t1 t2 H1 H2 H. unfold hash_input_v3, sig_trailer_v3 in H. cbn [signed_octets_v3 signed_octets_v4] in H.
  apply app_inj_len_r in H as [Hd Ht]; [|reflexivity]. repeat split; [assumption|congruence|apply be4_inj; congruence].
Qed.

Lemma be_value_zeros k l : be_value (repeat 0 k ++ l) = be_value l.
Proof.
  unfold be_value. rewrite fold_left_app. replace (fold_left (fun acc b : N => N.shiftl acc 8 + b) (repeat 0 k) 0) with 0; [reflexivity|].
  induction k; cbn [repeat fold_left]; [reflexivity|]. cbn. exact IHk.
Qed.

Lemma be_value_sexp_mpi v : be_value (sexp_mpi v) = v.
Proof. now apply be_value_wide. Qed.

Lemma be_value_eddsa_component v : be_value (eddsa_component v) = v.
Proof.
  unfold eddsa_component. destruct (Nat.ltb_spec (mpi_octets v) 32); [apply be_value_wide; lia|apply be_value_sexp_mpi].
Qed.

(* whatever leading zero octets the MPI encoding dropped, the primitive receives octet strings with exactly the values
   of the two MPIs, of the fixed width 32 whenever the value is shorter: normalisation cannot change the verdict of a
   primitive that reads R and S as 32-octet strings *)
Theorem eddsa_sigval_values : forall r s a b, eddsa_sigval r s = Some (a, b) -> be_value a = r /\ be_value b = s.
Proof.
  intros r s a b H. unfold eddsa_sigval in H.
  destruct ((mpi_octets r =? 0) || (32 <? mpi_octets r) || (mpi_octets s =? 0) || (32 <? mpi_octets s))%nat; [discriminate|].
  inversion H. split; apply be_value_eddsa_component.
Qed.

Theorem eddsa_sigval_padded : forall r s a b, eddsa_sigval r s = Some (a, b) ->
  ((mpi_octets r < 32)%nat -> length a = 32%nat) /\ ((mpi_octets s < 32)%nat -> length b = 32%nat).
Proof.
  intros r s a b H. unfold eddsa_sigval in H.
  destruct ((mpi_octets r =? 0) || (32 <? mpi_octets r) || (mpi_octets s =? 0) || (32 <? mpi_octets s))%nat; [discriminate|].
  inversion H; subst. unfold eddsa_component. split; intro L.
  - replace (mpi_octets r <? 32)%nat with true by lia. apply be_bytes_length.
  - replace (mpi_octets s <? 32)%nat with true by lia. apply be_bytes_length.
Qed.

(* 90000 is future_slack: 25 hours in seconds *)
Theorem validity_rules_iff : forall current creation expiration keycreation h,
  check_validity current creation expiration keycreation h = Valid <->
  ((expiration = 0 \/ current <= creation + expiration) /\ keycreation <= creation /\
   creation <= current + 90000 /\ strong_hash h = true)%Z.
Proof.
  intros. unfold check_validity, future_slack.
  destruct (negb _ && _) eqn:B1; [split; [discriminate|lia]|].
  destruct (creation <? keycreation)%Z eqn:B2; [split; [discriminate|lia]|].
  destruct (current + _ <? creation)%Z eqn:B3; [split; [discriminate|lia]|].
  destruct (strong_hash h); cbn [negb]; split; try discriminate; try reflexivity; intro; lia.
Qed.

Theorem validity_refusals : forall current creation expiration keycreation h,
  (expiration <> 0 /\ creation + expiration < current -> check_validity current creation expiration keycreation h = Expired)%Z /\
  ((expiration = 0 \/ current <= creation + expiration) /\ creation < keycreation ->
     check_validity current creation expiration keycreation h = OlderThanKey)%Z /\
  ((expiration = 0 \/ current <= creation + expiration) /\ keycreation <= creation /\ current + 90000 < creation ->
     check_validity current creation expiration keycreation h = FarFuture)%Z /\
  ((expiration = 0 \/ current <= creation + expiration) /\ keycreation <= creation /\ creation <= current + 90000 /\
     strong_hash h = false -> check_validity current creation expiration keycreation h = WeakHash)%Z.
Proof.
  intros. unfold check_validity, future_slack.
  destruct (negb _ && _) eqn:B1; [repeat split; intro; (reflexivity || lia)|].
  destruct (creation <? keycreation)%Z eqn:B2; [repeat split; intro; (reflexivity || lia)|].
  destruct (current + _ <? creation)%Z eqn:B3; [repeat split; intro; (reflexivity || lia)|].
  destruct (strong_hash h); cbn [negb]; repeat split; intro; (reflexivity || lia).
Qed.

(* SHA-256, SHA-384, SHA-512, SHA3-256 and SHA3-512 are the accepted hash algorithms, every other code is refused *)
Lemma strong_hash_iff h : strong_hash h = true <-> In h [8; 9; 10; 12; 14].
Proof. unfold strong_hash. cbn [In]. lia. Qed.

(* among the refused: MD5, SHA-1, RIPEMD-160, SHA-224 *)
Lemma weak_hashes_refused : strong_hash 1 = false /\ strong_hash 2 = false /\ strong_hash 3 = false /\ strong_hash 11 = false
  /\ strong_hash 0 = false.
Proof. vm_compute. repeat split. Qed.

(* a signature is only accepted if the primitive accepts the recomputed hash; a wrong left-16-bits field is refused *)
Theorem check_integrity_sound : forall verify pk left hash,
  check_integrity verify pk left hash = true ->
  sig_algo_of pk <> SigUnsupported /\ verify (sig_algo_of pk) hash = true /\ (length left = 2%nat -> left = left16 hash).
Proof.
  intros verify pk left hash H. unfold check_integrity in H.
  destruct (Nat.eqb_spec (length left) 2) as [Hl|Hl]; cbn [andb] in H.
  - destruct (octets_eqb left (left16 hash)) eqn:E; cbn [negb] in H; [|discriminate].
    apply octets_eqb_eq in E. destruct (sig_algo_of pk); try discriminate; repeat split; auto; discriminate.
  - destruct (sig_algo_of pk); try discriminate; repeat split; auto; try discriminate; intro; lia.
Qed.

Lemma split_mdc (out : list N) : (22 <= length out)%nat ->
  out = firstn (length out - 22) out ++ [nth (length out - 22) out 0; nth (length out - 21) out 0]
        ++ skipn (length out - 20) out /\ length (skipn (length out - 20) out) = 20%nat.
Proof.
  intro H. split; [|rewrite skipn_length; lia].
  set (n := (length out - 22)%nat).
  replace (length out - 21)%nat with (S n) by lia. replace (length out - 20)%nat with (S (S n)) by lia.
  cbn [app]. rewrite <- !skipn_nth by lia. symmetry. apply firstn_skipn.
Qed.

Lemma check_mdc_true sha1 seipd prefix mdc body : check_mdc sha1 seipd prefix mdc body = true ->
  mdc = sha1 (mdc_input prefix body).
Proof. unfold check_mdc. intro H. apply andb_true_iff in H as [_ H]. now apply octets_eqb_eq. Qed.

(* plaintext is only released under integrity protection: either the AEAD layer authenticated everything,
   or the plaintext ends with an MDC packet whose SHA-1 over prefix, body and 0xD3 0x14 is correct *)
Theorem decrypt_requires_integrity : forall sha1 cfb aead ok m out,
  decrypt sha1 cfb aead ok m = DecOk out ->
  ok = true /\ enc_data m <> [] /\
  ((have_aead m = true /\ aead (enc_data m) = Some out) \/
   (have_aead m = false /\ have_seipd m = true /\
    exists prefix body mdc, cfb (enc_data m) = Some (prefix, out) /\ out = body ++ [211; 20] ++ mdc /\
      length mdc = 20%nat /\ mdc = sha1 (mdc_input prefix body))).
Proof.
  intros sha1 cfb aead ok m out H. unfold decrypt in H.
  destruct (enc_data m) as [|e0 er] eqn:Ed; [discriminate|].
  destruct ok; cbn [negb] in H; [|discriminate].
  split; [reflexivity|]. split; [discriminate|].
  destruct (have_aead m).
  - left. split; [reflexivity|]. destruct (aead (e0 :: er)); inversion H; reflexivity.
  - right. split; [reflexivity|].
    destruct (cfb (e0 :: er)) as [[prefix o]|] eqn:Ec; [|discriminate].
    destruct (have_seipd m); [|discriminate]. split; [reflexivity|].
    destruct (Nat.ltb_spec (length o) 22) as [Hn|Hn]; [discriminate|].
    destruct ((nth (length o - 22) o 0 =? 211) && (nth (length o - 21) o 0 =? 20)) eqn:Et; cbn [negb] in H; [|discriminate].
    destruct (check_mdc sha1 true prefix (skipn (length o - 20) o) (firstn (length o - 22) o)) eqn:Em; [|discriminate].
    inversion H; subst o. clear H.
    apply andb_true_iff in Et as [E1 E2]. apply N.eqb_eq in E1, E2.
    apply check_mdc_true in Em.
    destruct (split_mdc out Hn) as [Hs Hl]. rewrite E1, E2 in Hs.
    exists prefix, (firstn (length out - 22) out), (skipn (length out - 20) out).
    repeat split; assumption.
Qed.

(* data without integrity protection (tag 9, or nothing) is never released *)
Theorem decrypt_unprotected_refused : forall sha1 cfb aead ok m,
  have_aead m = false -> have_seipd m = false -> forall out, decrypt sha1 cfb aead ok m <> DecOk out.
Proof.
  intros sha1 cfb aead ok m Ha Hs out H. apply decrypt_requires_integrity in H as [_ [_ [[H _]|[_ [H _]]]]]; congruence.
Qed.

Theorem chunk_ad_inj : forall pre i j, i < 18446744073709551616 -> j < 18446744073709551616 ->
  chunk_ad pre i = chunk_ad pre j -> i = j.
Proof. unfold chunk_ad. intros pre i j Hi Hj H. apply app_inv_head in H. now apply be8_inj. Qed.

Theorem final_ad_inj : forall pre i j s t,
  i < 18446744073709551616 -> j < 18446744073709551616 -> s < 18446744073709551616 -> t < 18446744073709551616 ->
  final_ad pre i s = final_ad pre j t -> i = j /\ s = t.
Proof.
  unfold final_ad. intros pre i j s t Hi Hj Hs Ht H. apply app_inv_head in H.
  apply app_inj_len_l in H as [H1 H2]; [|reflexivity]. split; now apply be8_inj.
Qed.

(* the final tag's associated data is eight octets longer than a chunk's *)
Theorem chunk_final_ad_distinct : forall pre i j t, chunk_ad pre i <> final_ad pre j t.
Proof.
  unfold chunk_ad, final_ad. intros pre i j t H. apply app_inv_head in H.
  apply (f_equal (@length N)) in H. rewrite app_length, !be8_length in H. lia.
Qed.

(* the nonce schedule as implemented repeats: chunk 3 (and the final tag of a three-chunk message) uses the
   nonce of chunk 0; chunk_nonce_rfc_deviation below shows on the all-zero IV that it has left the schedule of
   RFC 4880bis at chunk 2 *)
Theorem chunk_nonce_unique_refuted : forall iv, chunk_nonce_impl iv 3 = chunk_nonce_impl iv 0.
Proof. intro iv. unfold chunk_nonce_impl. replace (cum_xor 3) with (cum_xor 0) by (vm_compute; reflexivity). reflexivity. Qed.

Lemma chunk_nonce_rfc_deviation :
  chunk_nonce_impl (repeat 0 16) 2 <> chunk_nonce_rfc (repeat 0 16) 2 /\
  chunk_nonce_impl (repeat 0 16) 1 = chunk_nonce_rfc (repeat 0 16) 1.
Proof. vm_compute. split; [discriminate|reflexivity]. Qed.

(* chunk arithmetic: the decoder finds the number of full chunks the encoder produced *)
Theorem aead_chunk_count : forall cs n, 1 <= n ->
  dec_full_chunks cs (enc_ct_len cs n) = enc_full_chunks cs n.
Proof.
  intros cs n Hn. unfold dec_full_chunks, enc_ct_len, enc_full_chunks.
  assert (Hd : chunk_dim cs <> 0) by (apply N.pow_nonzero; discriminate).
  pose proof (N.div_mod (n - 1) _ Hd) as E. pose proof (N.mod_lt (n - 1) _ Hd) as L.
  set (d := chunk_dim cs) in *. set (q := (n - 1) / d) in *. set (r := (n - 1) mod d) in *. clearbody d q r.
  (* n - 1 = d * q + r makes the ciphertext length minus 17 equal to (d + 16) * q + (r + 16) *)
  symmetry. apply N.div_unique with (r := r + 16); lia.
Qed.
