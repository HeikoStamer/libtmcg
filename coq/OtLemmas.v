(* OtLemmas: proofs about OtModel (C18). *)
From Coq Require Import ZArith Znumtheory Lia List Bool ZifyBool.
From LT Require Import Zbase CodecModel CheckGroupModel CheckGroupLemmas OtModel.
Import ListNotations.
Local Open Scope Z_scope.

Lemma distinct_iff zs : distinct zs = true <-> NoDup zs.
Proof.
  induction zs as [|z r IH]; cbn [distinct].
  - split; [constructor|reflexivity].
  - assert (X : existsb (Z.eqb z) r = true <-> In z r).
    { rewrite existsb_exists. split.
      - intros (x & I & E). apply Z.eqb_eq in E. now subst.
      - intros I. exists z. split; [assumption|apply Z.eqb_refl]. }
    now rewrite andb_true_iff, negb_true_iff, <- not_true_iff_false, X, IH, NoDup_cons_iff.
Qed.

Lemma is_elem_iff p q a : 0 <= q -> (is_elem p q a = true <-> 0 < a < p /\ a ^ q mod p = 1).
Proof.
  intros Hq. rewrite <- check_element_iff by assumption. unfold is_elem.
  destruct (check_element p q a); split; try reflexivity; try discriminate.
Qed.

(* in a prime field a non-zero factor cancels *)
Lemma mul_cancel_prime p M x : prime p -> M mod p <> 0 -> 0 < x < p -> (M * x) mod p = M mod p -> x = 1.
Proof.
  intros Pp HM Hx E. pose proof (prime_ge_2 p Pp).
  destruct (prime_mult p Pp M (x - 1)) as [D|D].
  - apply Zmod_divide; [lia|]. now rewrite Z.mul_sub_distr_l, Z.mul_1_r, Zminus_mod, E, Z.sub_diag, Z.mod_0_l by lia.
  - exfalso. apply HM. now apply Zdivide_mod.
  - rewrite <- (Z.mod_small x p) by lia. apply Zdivide_mod_minus; [lia|assumption].
Qed.

(* the sender's guard: nothing is sent exactly when the test fails *)
Lemma guard_none {A} (c : bool) (v : A) : (if c then Some v else None) = None <-> ~ c = true.
Proof. destruct c; split; congruence. Qed.

Theorem send_n_aborts_iff p q g Ms x y zs coins :
  send_n p q g Ms x y zs coins = None <->
  ~ (is_elem p q x = true /\ is_elem p q y = true /\ Forall (fun z => is_elem p q z = true) zs /\ NoDup zs).
Proof. unfold send_n. rewrite guard_none, !andb_true_iff, forallb_forall, <- Forall_forall, distinct_iff. tauto. Qed.

Theorem send_2_aborts_iff p q g M0 M1 x y z0 z1 r0 s0 r1 s1 :
  send_2 p q g M0 M1 x y z0 z1 r0 s0 r1 s1 = None <->
  ~ (is_elem p q x = true /\ is_elem p q y = true /\ is_elem p q z0 = true /\ is_elem p q z1 = true /\ z0 <> z1).
Proof. unfold send_2. rewrite guard_none, !andb_true_iff, negb_true_iff, Z.eqb_neq. tauto. Qed.

Theorem send_opt_aborts_iff p q g Ms x y z0 coins :
  send_opt p q g Ms x y z0 coins = None <->
  ~ (is_elem p q x = true /\ is_elem p q y = true /\ is_elem p q z0 = true).
Proof. unfold send_opt. rewrite guard_none, !andb_true_iff. tauto. Qed.

(* the 1-of-2 functions are the 1-of-N functions at N = 2 *)
Lemma send_2_as_n p q g M0 M1 x y z0 z1 r0 s0 r1 s1 :
  send_2 p q g M0 M1 x y z0 z1 r0 s0 r1 s1 = send_n p q g [M0; M1] x y [z0; z1] [(s0, r0); (s1, r1)].
Proof.
  unfold send_2, send_n. cbn [forallb distinct existsb enc_all].
  destruct (is_elem p q x), (is_elem p q y), (is_elem p q z0), (is_elem p q z1), (z0 =? z1); reflexivity.
Qed.

Lemma choose_2_as_n p q g sigma a b c : (sigma < 2)%nat ->
  choose_2_first p q g sigma a b c = choose_n_first p q g sigma a b [c; c].
Proof. intros H. destruct sigma as [|[|s]]; [reflexivity|reflexivity|lia]. Qed.

Definition nonneg2 (sr : Z * Z) : Prop := 0 <= fst sr /\ 0 <= snd sr.

(* correctness and the exact value opened need g^q = 1 only; that p and q are prime enters in other_opens_iff *)
Section OT.
  Variables p q g : Z.
  Hypothesis Hp : 1 < p.
  Hypothesis Hq : 0 < q.
  Hypothesis Hgq : g ^ q mod p = 1.

  Let Hgq' : powm g q p = 1. Proof. rewrite powm_spec by lia. exact Hgq. Qed.

  Lemma pw_elem e : 0 <= e -> is_elem p q (powm g e p) = true.
  Proof. intros He. unfold is_elem. now rewrite check_element_power. Qed.

  (* the heart: what the chooser's second-move computation yields on one (w, ENC) pair.
     w = g^(as+r), ENC = g^(Es+br) * M, and mpz_invert finds w^-b = g^((q-1)(as+r)b): all that remains is the exponent modulo q *)
  Lemma open_enc a b s r E M : 0 <= a -> 0 <= b -> 0 <= s -> 0 <= r -> 0 <= E ->
    open_with p b (enc_pair p g (powm g a p) (powm g b p) (powm g E p) M s r)
    = Some ((M * powm g (((E - a * b) mod q) * s) p) mod p).
  Proof.
    intros Ha Hb Hs Hr HE. unfold open_with, enc_pair. cbn [fst snd].
    pose proof (Z.mod_pos_bound (E - a * b) q Hq) as Re.
    rewrite <- !powm_mul, <- !powm_add, <- powm_mul by nia. rewrite (powm_inverse p q g) by (assumption || nia). f_equal.
    rewrite Zmult_mod_idemp_l, <- Z.mul_assoc, (Z.mul_comm M), Z.mul_assoc, <- Zmult_mod_idemp_l, <- powm_add by nia.
    rewrite Z.mul_comm. f_equal. f_equal. apply (powm_cong p q); try assumption; try nia.
    replace (E * s + b * r + (q - 1) * ((a * s + r) * b)) with ((E - a * b) * s + (a * s + r) * b * q) by ring.
    now rewrite Z.mod_add, Z.mul_mod_idemp_l by lia.
  Qed.

  Lemma open_enc_chosen a b s r E M : 0 <= a -> 0 <= b -> 0 <= s -> 0 <= r -> 0 <= E -> E mod q = (a * b) mod q ->
    open_with p b (enc_pair p g (powm g a p) (powm g b p) (powm g E p) M s r) = Some (M mod p).
  Proof.
    intros Ha Hb Hs Hr HE Ec. rewrite open_enc by assumption.
    now rewrite Zminus_mod, Ec, Z.sub_diag, Z.mod_0_l, Z.mul_0_l, powm_0_r, (Z.mod_small 1 p), Z.mul_1_r by lia.
  Qed.

  Lemma zs_of_nth sigma ab : forall cs i n,
    nth_error (zs_of p g sigma ab i cs) n =
    match nth_error cs n with
    | Some c => Some (powm g (if Nat.eqb (i + n) sigma then ab else c) p)
    | None => None
    end.
  Proof.
    induction cs as [|c r IH]; intros i n; cbn [zs_of].
    - destruct n; reflexivity.
    - destruct n as [|n]; cbn [nth_error].
      + now rewrite Nat.add_0_r.
      + rewrite IH. now rewrite Nat.add_succ_r.
  Qed.

  Lemma zs_of_elems sigma ab : 0 <= ab -> forall cs i, Forall (fun c => 0 <= c) cs ->
    forallb (is_elem p q) (zs_of p g sigma ab i cs) = true.
  Proof.
    intros Hab. induction cs as [|c r IH]; intros i F; cbn [zs_of forallb]; [reflexivity|].
    inversion F as [|? ? Hc F']. subst. rewrite IH by assumption. rewrite pw_elem; [reflexivity|].
    destruct (Nat.eqb i sigma); assumption.
  Qed.

  Lemma enc_all_nth x y : forall zs Ms coins n z M s r,
    nth_error zs n = Some z -> nth_error Ms n = Some M -> nth_error coins n = Some (s, r) ->
    nth_error (enc_all p g x y zs Ms coins) n = Some (enc_pair p g x y z M s r).
  Proof.
    induction zs as [|z0 zs IH]; intros Ms coins n z M s r Ez EM Ec.
    - destruct n; discriminate.
    - destruct Ms as [|M0 Ms]; [destruct n; discriminate|]. destruct coins as [|[s0 r0] coins]; [destruct n; discriminate|].
      cbn [enc_all]. destruct n as [|n]; cbn [nth_error] in *.
      + congruence.
      + now apply IH.
  Qed.

  Lemma enc_pair_w_elem a y z M s r : 0 <= a -> 0 <= s -> 0 <= r ->
    is_elem p q (fst (enc_pair p g (powm g a p) y z M s r)) = true.
  Proof. intros. unfold enc_pair. cbn [fst]. now rewrite <- powm_mul, <- powm_add, pw_elem by nia. Qed.

  Lemma enc_all_ws a y : 0 <= a -> forall zs Ms coins, Forall nonneg2 coins ->
    forallb (fun wc => is_elem p q (fst wc)) (enc_all p g (powm g a p) y zs Ms coins) = true.
  Proof.
    intros Ha. induction zs as [|z0 zs IH]; intros [|M0 Ms] [|[s0 r0] coins] F; try reflexivity.
    inversion F as [|? ? [Hs Hr] F']. cbn [enc_all forallb]. now rewrite IH, enc_pair_w_elem.
  Qed.

  Lemma enc_opt_nth x y : forall Ms coins E first n M s r, 0 <= E ->
    nth_error Ms n = Some M -> nth_error coins n = Some (s, r) ->
    nth_error (enc_opt p g x y (powm g E p) first Ms coins) n
    = Some (enc_pair p g x y (powm g (E + Z.of_nat n + (if first then 0 else 1)) p) M s r).
  Proof.
    induction Ms as [|M0 Ms IH]; intros coins E first n M s r HE EM Ec.
    - destruct n; discriminate.
    - destruct coins as [|[s0 r0] coins]; [destruct n; discriminate|]. cbn [enc_opt].
      assert (Z' : (if first then powm g E p else (powm g E p * g) mod p) = powm g (E + (if first then 0 else 1)) p).
      { destruct first; [now rewrite Z.add_0_r|]. now rewrite powm_add, powm_1_r, Zmult_mod_idemp_r by lia. }
      rewrite Z'. destruct n as [|n]; cbn [nth_error] in *.
      + inversion EM. inversion Ec. subst. do 2 f_equal. f_equal. lia.
      + rewrite (IH coins (E + (if first then 0 else 1)) false n M s r); [|destruct first; lia|assumption|assumption].
        do 2 f_equal. f_equal. destruct first; lia.
  Qed.

  Lemma enc_opt_ws a y : 0 <= a -> forall Ms coins z first, Forall nonneg2 coins ->
    forallb (fun wc => is_elem p q (fst wc)) (enc_opt p g (powm g a p) y z first Ms coins) = true.
  Proof.
    intros Ha. induction Ms as [|M0 Ms IH]; intros [|[s0 r0] coins] z first F; try reflexivity.
    inversion F as [|? ? [Hs Hr] F']. cbn [enc_opt forallb]. now rewrite IH, enc_pair_w_elem.
  Qed.

  Lemma coin_at coins n : Forall nonneg2 coins -> (n < length coins)%nat ->
    exists s r, nth_error coins n = Some (s, r) /\ 0 <= s /\ 0 <= r.
  Proof.
    intros F L. destruct (nth_error coins n) as [[s r]|] eqn:E.
    - exists s, r. split; [reflexivity|]. apply nth_error_In in E. rewrite Forall_forall in F. apply (F _ E).
    - apply nth_error_None in E. lia.
  Qed.

  Theorem ot_n_correct Ms sigma a b cs coins :
    0 <= a -> 0 <= b -> Forall (fun c => 0 <= c) cs -> Forall nonneg2 coins ->
    length cs = length Ms -> length coins = length Ms -> (sigma < length Ms)%nat ->
    let '(x, y, zs) := choose_n_first p q g sigma a b cs in
    match send_n p q g Ms x y zs coins with
    | Some resp => choose_second p q sigma b resp = Some (nth sigma Ms 0 mod p)
    | None => ~ NoDup zs
    end.
  Proof.
    intros Ha Hb Fc Fk Lc Lk Ls. unfold choose_n_first, send_n.
    pose proof (Z.mod_pos_bound (a * b) q ltac:(lia)) as Rab.
    rewrite !pw_elem by lia. rewrite zs_of_elems by (try lia; assumption). cbn [andb].
    destruct (distinct (zs_of p g sigma ((a * b) mod q) 0 cs)) eqn:Ed.
    2:{ intros N. apply distinct_iff in N. congruence. }
    unfold choose_second. rewrite enc_all_ws by assumption.
    destruct (coin_at coins sigma Fk ltac:(lia)) as (s & r & Ek & Hs & Hr).
    rewrite (enc_all_nth _ _ _ _ _ sigma (powm g ((a * b) mod q) p) (nth sigma Ms 0) s r).
    - apply open_enc_chosen; try lia. apply Zmod_mod.
    - rewrite zs_of_nth. destruct (nth_error cs sigma) eqn:E; [|apply nth_error_None in E; lia].
      cbn [Nat.add]. now rewrite Nat.eqb_refl.
    - now apply nth_error_nth'.
    - exact Ek.
  Qed.

  (* the chooser's own computation on a ciphertext it did not choose: exactly M_i * g^((c_i - ab) s_i) *)
  Theorem ot_n_other_exact Ms sigma a b cs coins i :
    0 <= a -> 0 <= b -> Forall (fun c => 0 <= c) cs -> Forall nonneg2 coins ->
    length cs = length Ms -> length coins = length Ms -> (i < length Ms)%nat -> i <> sigma ->
    let '(x, y, zs) := choose_n_first p q g sigma a b cs in
    forall resp, send_n p q g Ms x y zs coins = Some resp ->
    curious p b resp i = Some ((nth i Ms 0 * powm g (((nth i cs 0 - a * b) mod q) * fst (nth i coins (0, 0))) p) mod p).
  Proof.
    intros Ha Hb Fc Fk Lc Lk Li Ne. unfold choose_n_first, send_n. intros resp.
    destruct (_ && _ && _ && _); [|discriminate]. intros E. injection E as <-.
    unfold curious.
    destruct (coin_at coins i Fk ltac:(lia)) as (s & r & Ek & Hs & Hr).
    assert (Hc : 0 <= nth i cs 0).
    { rewrite Forall_forall in Fc. apply Fc. apply nth_In. lia. }
    rewrite (enc_all_nth _ _ _ _ _ i (powm g (nth i cs 0) p) (nth i Ms 0) s r).
    - rewrite open_enc by lia. rewrite (nth_error_nth _ _ _ Ek). reflexivity.
    - rewrite zs_of_nth. rewrite (nth_error_nth' cs 0) by lia. cbn [Nat.add].
      destruct (Nat.eqb_spec i sigma); [contradiction|reflexivity].
    - now apply nth_error_nth'.
    - exact Ek.
  Qed.

  (* ... which is the message only for the single coin value s_i = 0 (the sender's distinctness test guarantees
     z_i <> z_sigma, i.e. c_i <> ab mod q) *)
  Theorem other_opens_iff M c ab s : prime p -> prime q -> 1 < g < p - 1 ->
    0 <= c -> 0 <= ab -> 0 <= s < q -> M mod p <> 0 ->
    powm g c p <> powm g (ab mod q) p ->
    ((M * powm g (((c - ab) mod q) * s) p) mod p = M mod p <-> s = 0).
  Proof.
    intros Pp Pq Hg Hc Hab Hs HM Nz. assert (g_ne1 : g mod p <> 1) by (rewrite Z.mod_small; lia).
    pose proof (Z.mod_pos_bound (c - ab) q Hq) as Re. pose proof (Z.mod_pos_bound ab q Hq) as Rab.
    split; [|intros ->; now rewrite Z.mul_0_r, powm_0_r, (Z.mod_small 1 p), Z.mul_1_r by lia].
    intros E. apply mul_cancel_prime in E; [|assumption..|apply (powm_nonzero p q); assumption || nia].
    (* g^(e s) = 1 = g^0, so q divides e s; it does not divide e = (c - ab) mod q, since z_i <> z_sigma *)
    assert (Q : ((c - ab) mod q * s) mod q = 0 mod q)
      by (apply (powm_inj_mod_q p q g Hp Pq Hgq' g_ne1); [nia|lia|]; now rewrite E, powm_0_r, Z.mod_1_l).
    rewrite Z.mod_0_l in Q by lia. apply Zmod_divide, (prime_mult q Pq) in Q; [|lia]. destruct Q as [Q|Q].
    - exfalso. apply Z.mod_divide in Q; [|lia]. rewrite Zmod_mod in Q.
      apply Nz, (powm_cong p q); try assumption; try lia.
      rewrite Zmod_mod. rewrite <- (Z.sub_add ab c) at 1. now rewrite <- Z.add_mod_idemp_l, Q by lia.
    - destruct (Z.eq_dec s 0); [assumption|]. apply Z.divide_pos_le in Q; lia.
  Qed.

  Theorem ot_2_correct M0 M1 sigma a b c r0 s0 r1 s1 :
    0 <= a -> 0 <= b -> 0 <= c -> 0 <= r0 -> 0 <= s0 -> 0 <= r1 -> 0 <= s1 -> (sigma < 2)%nat ->
    let '(x, y, zs) := choose_2_first p q g sigma a b c in
    match send_2 p q g M0 M1 x y (nth 0 zs 0) (nth 1 zs 0) r0 s0 r1 s1 with
    | Some resp => choose_second p q sigma b resp = Some (nth sigma [M0; M1] 0 mod p)
    | None => nth 0 zs 0 = nth 1 zs 0
    end.
  Proof.
    intros Ha Hb Hc Hr0 Hs0 Hr1 Hs1 Ls.
    pose proof (ot_n_correct [M0; M1] sigma a b [c; c] [(s0, r0); (s1, r1)] Ha Hb) as T.
    rewrite <- choose_2_as_n in T by assumption.
    destruct (choose_2_first p q g sigma a b c) as [[x y] zs] eqn:E0.
    assert (Lz : exists z0 z1, zs = [z0; z1]).
    { unfold choose_2_first in E0. destruct (Nat.eqb sigma 0); inversion E0; eauto. }
    destruct Lz as (z0 & z1 & ->). cbn [nth]. rewrite send_2_as_n.
    assert (Fc : Forall (fun c0 => 0 <= c0) [c; c]) by (repeat constructor; assumption).
    assert (Fk : Forall nonneg2 [(s0, r0); (s1, r1)]) by (repeat constructor; assumption).
    assert (T' := T Fc Fk eq_refl eq_refl Ls).
    destruct (send_n p q g [M0; M1] x y [z0; z1] [(s0, r0); (s1, r1)]); [exact T'|].
    destruct (Z.eq_dec z0 z1) as [|N]; [assumption|]. exfalso. apply T'.
    constructor; [intros [I|[]]; congruence|]. constructor; [intros []|constructor].
  Qed.

  Lemma choose_opt_first_value sigma a b : 0 <= a -> 0 <= b ->
    choose_opt_first p q g sigma a b =
    Some (powm g a p, powm g b p, powm g ((a * b) mod q + (q - 1) * Z.of_nat sigma) p).
  Proof.
    intros Ha Hb. unfold choose_opt_first. pose proof (Z.mod_pos_bound (a * b) q Hq).
    now rewrite (powm_inverse p q g), <- powm_add by (assumption || nia).
  Qed.

  Theorem ot_opt_correct Ms sigma a b coins :
    0 <= a -> 0 <= b -> Forall nonneg2 coins -> length coins = length Ms -> (sigma < length Ms)%nat ->
    exists x y z0, choose_opt_first p q g sigma a b = Some (x, y, z0) /\
    exists resp, send_opt p q g Ms x y z0 coins = Some resp /\
    choose_second p q sigma b resp = Some (nth sigma Ms 0 mod p).
  Proof.
    intros Ha Hb Fk Lk Ls.
    pose proof (Z.mod_pos_bound (a * b) q ltac:(lia)) as Rab.
    set (E0 := (a * b) mod q + (q - 1) * Z.of_nat sigma).
    assert (HE0 : 0 <= E0) by (unfold E0; nia).
    exists (powm g a p), (powm g b p), (powm g E0 p). split; [now apply choose_opt_first_value|].
    unfold send_opt. rewrite !pw_elem by lia. cbn [andb]. eexists. split; [reflexivity|].
    unfold choose_second. rewrite enc_opt_ws by assumption.
    destruct (coin_at coins sigma Fk ltac:(lia)) as (s & r & Ek & Hs & Hr).
    rewrite (enc_opt_nth _ _ Ms coins E0 true sigma (nth sigma Ms 0) s r HE0); [|now apply nth_error_nth'|exact Ek].
    apply open_enc_chosen; try lia.
    unfold E0. replace ((a * b) mod q + (q - 1) * Z.of_nat sigma + Z.of_nat sigma + 0) with ((a * b) mod q + Z.of_nat sigma * q) by ring.
    rewrite Z.mod_add by lia. apply Zmod_mod.
  Qed.

  (* curious chooser, optimised variant: z_i = g^(ab - sigma + i), so ciphertext i opens to M_i * g^((i - sigma) s_i) *)
  Theorem ot_opt_other_exact Ms sigma a b coins i :
    0 <= a -> 0 <= b -> Forall nonneg2 coins -> length coins = length Ms -> (i < length Ms)%nat ->
    forall x y z0 resp, choose_opt_first p q g sigma a b = Some (x, y, z0) -> send_opt p q g Ms x y z0 coins = Some resp ->
    curious p b resp i = Some ((nth i Ms 0 * powm g (((Z.of_nat i - Z.of_nat sigma) mod q) * fst (nth i coins (0, 0))) p) mod p).
  Proof.
    intros Ha Hb Fk Lk Li x y z0 resp Ec Es.
    rewrite choose_opt_first_value in Ec by assumption. inversion Ec. subst x y z0. clear Ec.
    pose proof (Z.mod_pos_bound (a * b) q ltac:(lia)) as Rab.
    set (E0 := (a * b) mod q + (q - 1) * Z.of_nat sigma) in *.
    assert (HE0 : 0 <= E0) by (unfold E0; nia).
    unfold send_opt in Es. destruct (_ && _ && _); [|discriminate]. injection Es as <-.
    unfold curious.
    destruct (coin_at coins i Fk ltac:(lia)) as (s & r & Ek & Hs & Hr).
    rewrite (enc_opt_nth _ _ Ms coins E0 true i (nth i Ms 0) s r HE0); [|now apply nth_error_nth'|exact Ek].
    rewrite open_enc by lia. rewrite (nth_error_nth _ _ _ Ek). cbn [fst]. do 3 f_equal. f_equal.
    unfold E0.
    replace ((a * b) mod q + (q - 1) * Z.of_nat sigma + Z.of_nat i + 0 - a * b)
      with ((a * b) mod q - a * b + (Z.of_nat i - Z.of_nat sigma) + Z.of_nat sigma * q) by ring.
    rewrite Z.mod_add by lia. rewrite <- Z.add_mod_idemp_l by lia.
    rewrite Zminus_mod_idemp_l, Z.sub_diag, Z.mod_0_l by lia. reflexivity.
  Qed.
End OT.
