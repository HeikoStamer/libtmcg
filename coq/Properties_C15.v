(* C15 -- Secret sharing and distributed key generation are consistent.
   Property theorems only: each is closed by `exact <lemma>` and followed by Print Assumptions.
   Group hypotheses appear as premises: p > 1, q prime, g (and h) of order dividing q modulo p (what CheckGroup establishes).
   Timing (time-outs) is outside the model: a stream that ends early models a failed delivery. *)
From Coq Require Import ZArith Znumtheory List Lia.
From LT Require Import Zbase VssModel VssLemmas VssLagrange DkgModel DkgLemmas DkgRoundModel DkgRoundLemmas.
Import ListNotations.
Local Open Scope Z_scope.

(* an honest dealer's share pair passes the check g^s h^t = prod A_k^(x^k) of every recipient *)
Theorem C15_share_check_honest : forall p q g h, 1 < p -> prime q -> powm g q p = 1 -> powm h q p = 1 ->
  forall a b x, a <> [] -> length a = length b -> Forall (fun c => 0 <= c) a -> Forall (fun c => 0 <= c) b -> 0 <= x ->
  share_ok p g h (commits p g h a b) x (poly_eval q a x) (poly_eval q b x) = Some true.
Proof. exact share_check_honest. Qed.
Print Assumptions C15_share_check_honest.

(* Lagrange reconstruction (the formula of PedersenVSS::Reconstruct and GJKR-DKG::Reconstruct): ANY set of points with distinct abscissae on a polynomial with at most that many coefficients reconstructs f(0).
   Soundness form: the formula may only fail by a failing modular inversion (which the code reports as an error; for abscissae
   in [0, q) it does not: VssLagrange.lagrange0_complete). *)
Theorem C15_lagrange_ok_sound : forall q cs pts r, prime q -> (length cs <= length pts)%nat -> NoDup (map fst pts) ->
  (forall x y, In (x, y) pts -> 0 <= x < q /\ y mod q = poly_eval q cs x) ->
  lagrange0 q pts = Some r -> r = poly_eval q cs 0.
Proof. exact lagrange0_sound. Qed.
Print Assumptions C15_lagrange_ok_sound.

(* one and the same secret: two sets of shares of the same sharing reconstruct the same value *)
Theorem C15_same_secret : forall q cs pts1 pts2 r1 r2, prime q ->
  (length cs <= length pts1)%nat -> (length cs <= length pts2)%nat -> NoDup (map fst pts1) -> NoDup (map fst pts2) ->
  (forall x y, In (x, y) pts1 -> 0 <= x < q /\ y mod q = poly_eval q cs x) ->
  (forall x y, In (x, y) pts2 -> 0 <= x < q /\ y mod q = poly_eval q cs x) ->
  lagrange0 q pts1 = Some r1 -> lagrange0 q pts2 = Some r2 -> r1 = r2.
Proof. exact lagrange0_same_secret. Qed.
Print Assumptions C15_same_secret.

(* Feldman commitments C_k = g^a_k determine the shares: whoever passes g^s = prod C_k^(x^k) holds f(x) modulo q *)
Theorem C15_feldman_unique : forall p q g, 1 < p -> prime q -> powm g q p = 1 ->
  forall a x s, g mod p <> 1 -> a <> [] -> Forall (fun c => 0 <= c) a -> 0 <= x -> 0 <= s ->
  powm g s p = rhs_prod p (fcommits p g a) x -> s mod q = poly_eval q a x.
Proof. exact feldman_unique. Qed.
Print Assumptions C15_feldman_unique.

(* share matches the public verification value: g^f(x) = prod (g^a_k)^(x^k) *)
Theorem C15_feldman_honest : forall p q g, 1 < p -> prime q -> powm g q p = 1 ->
  forall a x, a <> [] -> Forall (fun c => 0 <= c) a -> 0 <= x ->
  powm g (poly_eval q a x) p = rhs_prod p (fcommits p g a) x.
Proof. exact feldman_honest. Qed.
Print Assumptions C15_feldman_honest.

(* decision rules of the receiver, as equivalences against the model of PedersenVSS::Share(dealer) *)
Theorem C15_complaint_rule : forall p q g h As x s t c, recv_complaint p q g h As x s t = Some c ->
  (c = true <-> (in_range q s = false \/ in_range q t = false \/ forallb (check_element p q) As = false \/
                 share_ok p g h As x (zero_unless (in_range q s) s) (zero_unless (in_range q t) t) = Some false)).
Proof. exact complaint_rule. Qed.
Print Assumptions C15_complaint_rule.

Theorem C15_inconsistent_share_complains : forall p q g h As x s t,
  in_range q s = true -> in_range q t = true -> share_ok p g h As x s t = Some false ->
  recv_complaint p q g h As x s t = Some true.
Proof. exact inconsistent_share_complains. Qed.
Print Assumptions C15_inconsistent_share_complains.

Theorem C15_disqualified_rule : forall t c, disqualified t c = true <-> t < c.
Proof. exact disqualified_rule. Qed.
Print Assumptions C15_disqualified_rule.

Theorem C15_too_many_complaints_reject : forall p q g h n t i d As s tt streams res own,
  recv_complaint p q g h As (i + 1) s tt = Some own ->
  t < (if own then 1 else 0) + Z.of_nat (length (complaints_from n d streams)) ->
  exists sg ta, vss_receive p q g h n t i d As s tt streams res = Some {| vo_ret := false; vo_sigma := sg; vo_tau := ta |}.
Proof. exact too_many_complaints_reject. Qed.
Print Assumptions C15_too_many_complaints_reject.

(* the public resolution accepts exactly the dealer streams that answer every complaint, in order, with a valid pair *)
Theorem C15_resolve_rule : forall p q g h n i As from res sg ta, Forall (fun j => j < n) from ->
  ((exists sg' ta', resolve p q g h n i As from res false sg ta = Some (false, sg', ta')) <-> answered p q g h As from res).
Proof. exact resolve_rule. Qed.
Print Assumptions C15_resolve_rule.

(* a dealer that is accepted after complaints has published consistent pairs for all of them, the receiver's own included *)
Theorem C15_accept_means_answered : forall p q g h n t i d As s tt streams res own sg ta,
  i < n -> Forall (fun js => fst js < n) streams ->
  recv_complaint p q g h As (i + 1) s tt = Some own ->
  vss_receive p q g h n t i d As s tt streams res = Some {| vo_ret := true; vo_sigma := sg; vo_tau := ta |} ->
  answered p q g h As (recv_from n d i own streams) res \/ recv_from n d i own streams = [].
Proof. exact accept_means_answered. Qed.
Print Assumptions C15_accept_means_answered.

(* qualification is a function of broadcast values only: the verdict depends on the sorted list of complaining parties (every
   complaint, the receiver's own included, is broadcast) and on the dealer's broadcast answer, not on who evaluates it *)
Theorem C15_vss_verdict_from_broadcasts : forall p q g h n t i1 i2 d As s1 t1 s2 t2 streams1 streams2 res o1 o2 c1 c2,
  recv_complaint p q g h As (i1 + 1) s1 t1 = Some c1 -> recv_complaint p q g h As (i2 + 1) s2 t2 = Some c2 ->
  recv_from n d i1 c1 streams1 = recv_from n d i2 c2 streams2 ->
  vss_receive p q g h n t i1 d As s1 t1 streams1 res = Some o1 ->
  vss_receive p q g h n t i2 d As s2 t2 streams2 res = Some o2 -> vo_ret o1 = vo_ret o2.
Proof. exact verdict_from_broadcasts. Qed.
Print Assumptions C15_vss_verdict_from_broadcasts.

(* "disqualified or forced to publish consistent ones" (the model follows /repo with fix 3258c3f):
   a receiver that complained and accepts the dealer ends with a pair that matches the commitments ... *)
Theorem C15_complainer_corrected : forall p q g h n t i d As s tt streams res o,
  recv_complaint p q g h As (i + 1) s tt = Some true ->
  vss_receive p q g h n t i d As s tt streams res = Some o -> vo_ret o = true ->
  share_ok p g h As (i + 1) (vo_sigma o) (vo_tau o) = Some true.
Proof. exact complainer_corrected. Qed.
Print Assumptions C15_complainer_corrected.

(* ... and so does every accepting receiver that did not complain: each honest party's share matches the public values *)
Theorem C15_noncomplainer_consistent : forall p q g h n t i d As s tt streams res o,
  recv_complaint p q g h As (i + 1) s tt = Some false ->
  vss_receive p q g h n t i d As s tt streams res = Some o -> vo_ret o = true ->
  share_ok p g h As (i + 1) (vo_sigma o) (vo_tau o) = Some true.
Proof. exact noncomplainer_consistent. Qed.
Print Assumptions C15_noncomplainer_consistent.

(* key generation: every key share is the value of the joint polynomial F = sum_{j in QUAL} f_j ... *)
Theorem C15_dkg_share_joint : forall q P qual s x, 0 < q ->
  (forall j, In j qual -> nthz s j mod q = poly_eval q (P j) x) ->
  sum_qual q qual s = poly_eval q (joint P qual) x.
Proof. exact dkg_share_joint. Qed.
Print Assumptions C15_dkg_share_joint.

(* ... so any t+1 (or more) key shares reconstruct one and the same secret F(0) ... *)
Theorem C15_dkg_subsets_same_secret : forall q P qual tdeg pts r, prime q ->
  (forall j, In j qual -> (length (P j) <= tdeg)%nat) -> (tdeg <= length pts)%nat -> NoDup (map fst pts) ->
  (forall x y, In (x, y) pts -> 0 <= x < q /\ exists s, y = sum_qual q qual s /\ forall j, In j qual -> nthz s j mod q = poly_eval q (P j) x) ->
  lagrange0 q pts = Some r -> r = poly_eval q (joint P qual) 0.
Proof. exact dkg_subsets_same_secret. Qed.
Print Assumptions C15_dkg_subsets_same_secret.

(* ... whose public image is the key y = prod_{j in QUAL} g^z_j *)
Theorem C15_dkg_pubkey : forall p q g, 1 < p -> prime q -> powm g q p = 1 -> forall P qual ys, qual <> [] ->
  (forall j, In j qual -> Forall (fun c => 0 <= c) (P j) /\ nthz ys j = powm g (hd 0 (P j)) p) ->
  dkg_y p qual ys = powm g (poly_eval q (joint P qual) 0) p.
Proof. exact dkg_pubkey. Qed.
Print Assumptions C15_dkg_pubkey.

(* refresh: adding the shares of a sharing of zero yields shares of F + Z, which has the same secret; shares change *)
Theorem C15_refresh_preserves : forall q F Zp x, 0 < q -> hd 0 Zp = 0 ->
  refresh_share q (poly_eval q F x) (poly_eval q Zp x) = poly_eval q (padd F Zp) x /\
  poly_eval q (padd F Zp) 0 = poly_eval q F 0.
Proof. exact refresh_preserves. Qed.
Print Assumptions C15_refresh_preserves.

Theorem C15_refresh_changes : forall q x z, 0 < q -> 0 <= x < q -> z mod q <> 0 -> refresh_share q x z <> x.
Proof. exact refresh_changes. Qed.
Print Assumptions C15_refresh_changes.

(* GJKR new-DKG, sharing phase as a round function (DkgRoundModel: the local computation of P_i from the broadcasts B of all
   parties and the pairs P it received point-to-point; deviating parties' messages are inputs) *)

(* QUAL computed by an honest party is a function of the broadcast values only ... *)
Theorem C15_qual_function_of_broadcasts : forall p q g h n t i B P,
  0 <= n < 2 ^ 64 -> 0 <= i < n ->
  b_compl (getB B i) = dkg_own_stream p q g h n i B P ->      (* P_i broadcast its complaint list and the end marker, as the code does *)
  ans_glob p q g h n B i = false ->                           (* its own published answers pass the public check (honest dealer) *)
  qual_view p q g h n t i B P = qual_glob p q g h n t B.
Proof. exact qual_view_is_global. Qed.
Print Assumptions C15_qual_function_of_broadcasts.

(* ... hence all honest parties agree on QUAL, given agreement of the broadcast layer (C14): the same B at both parties *)
Theorem C15_qual_agreement : forall p q g h n t i1 i2 B P1 P2,
  0 <= n < 2 ^ 64 -> 0 <= i1 < n -> 0 <= i2 < n ->
  b_compl (getB B i1) = dkg_own_stream p q g h n i1 B P1 -> b_compl (getB B i2) = dkg_own_stream p q g h n i2 B P2 ->
  ans_glob p q g h n B i1 = false -> ans_glob p q g h n B i2 = false ->
  qual_view p q g h n t i1 B P1 = qual_view p q g h n t i2 B P2.
Proof. exact qual_agreement. Qed.
Print Assumptions C15_qual_agreement.

(* the disqualification rule: more than t complaints, where the party's own complaint counts like everybody else's *)
Theorem C15_too_many_complaints_disqualify : forall p q g h n t i B P j,
  t < cnt_view p q g h n i B P j -> ~ In j (qual_view p q g h n t i B P).
Proof. exact too_many_complaints_disqualify. Qed.
Print Assumptions C15_too_many_complaints_disqualify.

Theorem C15_own_complaint_counts : forall p q g h n i B P w, 0 <= i < n ->
  cnt_view p q g h n i B P w =
  b2z (memz w (dkg_mine p q g h n i B P)) + zsum (fun j => if j =? i then 0 else b2z (memz w (acc_of n B j))) (parties n).
Proof. exact own_complaint_counts. Qed.
Print Assumptions C15_own_complaint_counts.

Theorem C15_justified_complaints_disqualify : forall p q g h n t i B P w, 0 <= i < n -> 0 <= w < n ->
  dkg_complains p q g h i B P w = true ->
  t <= zsum (fun j => if j =? i then 0 else b2z (memz w (acc_of n B j))) (parties n) ->
  ~ In w (qual_view p q g h n t i B P).
Proof. exact justified_complaints_disqualify. Qed.
Print Assumptions C15_justified_complaints_disqualify.

(* the pair of a qualified dealer that an honest party ends with satisfies equation (4) - PARTIAL: under the premise that the party had
   no reason to complain or the dealer's answers contain a pair for it (the code never checks that every complaint was answered) *)
Theorem C15_dkg_final_pair_consistent_partial : forall p q g h n t i B P j, 0 <= j < n ->
  In j (qual_view p q g h n t i B P) ->
  dkg_complains p q g h i B P j = false \/ (j <> i /\ ans_mentions (S (Z.to_nat n)) n i (b_ans (getB B j)) = true) ->
  share_okb p g h (viewC p q i j B) (i + 1) (fst (final_pair p q g h n t i B P j)) (snd (final_pair p q g h n t i B P j)) = true.
Proof. exact final_pair_consistent. Qed.
Print Assumptions C15_dkg_final_pair_consistent_partial.

(* the full statement (without that premise) is REFUTED on the model of the code as it is: a dealer that sends P_1 a wrong pair and answers
   the complaint with the end marker only stays qualified and P_1 keeps the inconsistent pair (n = 3, t = 1, p = 23, q = 11) *)
Theorem C15_dkg_shares_consistent_unconditional_refuted :
  In 0 (qual_view 23 11 2 3 3 1 1 wit_B wit_P) /\ dkg_defined 23 11 2 3 3 1 1 wit_B wit_P = true /\
  b_compl (getB wit_B 1) = dkg_own_stream 23 11 2 3 3 1 wit_B wit_P /\
  share_okb 23 2 3 (viewC 23 11 1 0 wit_B) 2 (fst (final_pair 23 11 2 3 3 1 1 wit_B wit_P 0)) (snd (final_pair 23 11 2 3 3 1 1 wit_B wit_P 0)) = false.
Proof. exact shares_consistent_unconditional_refuted. Qed.
Print Assumptions C15_dkg_shares_consistent_unconditional_refuted.

(* for every honest j: g^x_j h^x'_j = prod_{i in QUAL} prod_k C_ik^((j+1)^k), given the per-dealer consistency above *)
Theorem C15_dkg_shares_consistent : forall p q g h, 1 < p -> prime q -> powm g q p = 1 -> powm h q p = 1 ->
  forall n t i B P, 0 <= i ->
  (forall j, In j (qual_view p q g h n t i B P) ->
     0 <= fst (final_pair p q g h n t i B P j) /\ 0 <= snd (final_pair p q g h n t i B P j) /\
     share_ok p g h (viewC p q i j B) (i + 1) (fst (final_pair p q g h n t i B P j)) (snd (final_pair p q g h n t i B P j)) = Some true) ->
  (powm g (fst (view_x p q g h n t i B P)) p * powm h (snd (view_x p q g h n t i B P)) p) mod p =
  fold_right (fun j a => (rhs_prod p (viewC p q i j B) (i + 1) * a) mod p) (1 mod p) (qual_view p q g h n t i B P).
Proof. exact shares_consistent. Qed.
Print Assumptions C15_dkg_shares_consistent.

(* the key: y = prod_{i in QUAL} A_i0 is g to the secret that any t+1 (or more) key shares interpolate to, when the extraction values
   A_i0 = g^z_i of all QUAL members are consistent with their polynomials (as published, or as recomputed after reconstruction) *)
Theorem C15_dkg_key : forall p q g P qual ys tdeg pts r,
  1 < p -> prime q -> powm g q p = 1 -> qual <> [] ->
  (forall j, In j qual -> Forall (fun c => 0 <= c) (P j) /\ (length (P j) <= tdeg)%nat /\ nthz ys j = powm g (hd 0 (P j)) p) ->
  (tdeg <= length pts)%nat -> NoDup (map fst pts) ->
  (forall x y, In (x, y) pts -> 0 <= x < q /\ exists s, y = sum_qual q qual s /\ forall j, In j qual -> nthz s j mod q = poly_eval q (P j) x) ->
  lagrange0 q pts = Some r ->
  powm g r p = dkg_y p qual ys.
Proof. exact dkg_key. Qed.
Print Assumptions C15_dkg_key.

(* non-vacuity: a concrete group and sharing meeting the hypotheses; the formulas compute what they should *)
Example C15_nonvacuous_group : powm 2 11 23 = 1 /\ powm 3 11 23 = 1 /\ 2 mod 23 <> 1.
Proof. repeat split; try reflexivity. discriminate. Qed.
Example C15_nonvacuous_sharing :
  share_ok 23 2 3 (commits 23 2 3 [5; 4] [2; 7]) 2 (poly_eval 11 [5; 4] 2) (poly_eval 11 [2; 7] 2) = Some true /\
  lagrange0 11 [(1, poly_eval 11 [5; 4] 1); (3, poly_eval 11 [5; 4] 3)] = Some 5 /\
  lagrange0 11 [(2, poly_eval 11 [5; 4] 2); (3, poly_eval 11 [5; 4] 3)] = Some 5 /\
  interpolate 11 [(1, poly_eval 11 [5; 4] 1); (3, poly_eval 11 [5; 4] 3)] = Some [5; 4].
Proof. repeat split; vm_compute; reflexivity. Qed.
(* a wrong pair (3,5) is sent to receiver 1, it complains, the dealer publishes (2,5): accepted with the corrected pair *)
Example C15_nonvacuous_corrected :
  recv_complaint 23 11 2 3 (commits 23 2 3 [5; 4] [2; 7]) 2 3 5 = Some true /\
  vss_receive 23 11 2 3 3 1 1 0 (commits 23 2 3 [5; 4] [2; 7]) 3 5 [(2, [3])] [1; 2; 5] = Some {| vo_ret := true; vo_sigma := 2; vo_tau := 5 |}.
Proof. split; vm_compute; reflexivity. Qed.
Example C15_nonvacuous_answered : answered 23 11 2 3 (commits 23 2 3 [5; 4] [2; 7]) [2] [2; poly_eval 11 [5; 4] 3; poly_eval 11 [2; 7] 3].
Proof. constructor; try reflexivity. constructor. Qed.

(* the round function on a concrete run (three parties, one wrong pair, complaint answered): P_1 and the observer agree on QUAL *)
Example C15_nonvacuous_round :
  let B := [ mkB (commits 23 2 3 [5; 4] [2; 7]) [3] [1; 2; 5; 3];
             mkB (commits 23 2 3 [1; 2] [3; 4]) [0; 3] [3];
             mkB (commits 23 2 3 [6; 1] [0; 9]) [3] [3] ] in
  dkg_view 23 11 2 3 3 1 1 B wit_P = Some ([0; 1; 2], ((2 + poly_eval 11 [1; 2] 2 + poly_eval 11 [6; 1] 2) mod 11, (5 + poly_eval 11 [3; 4] 2 + poly_eval 11 [0; 9] 2) mod 11)) /\
  qual_glob 23 11 2 3 3 1 B = [0; 1; 2] /\ b_compl (getB B 1) = dkg_own_stream 23 11 2 3 3 1 B wit_P /\ ans_glob 23 11 2 3 3 B 1 = false.
Proof. repeat split; vm_compute; reflexivity. Qed.
