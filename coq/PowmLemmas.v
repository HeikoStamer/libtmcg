(* PowmLemmas -- proofs about PowmModel (C09): correctness of the constant-time power, of the
   table-based powers, the throwing cases and the silent "gap" t < bitlen <= TMCG_MAX_FPOWM_T. *)
From Coq Require Import ZArith Znumtheory Zpow_facts Lia List Bool ZifyBool.
From LT Require Import Zbase gen_Consts PowmModel.
Import ListNotations.
Local Open Scope Z_scope.

Lemma inverse_unique (a x y p : Z) : 0 < p -> (a * x) mod p = 1 mod p -> (a * y) mod p = 1 mod p ->
  x mod p = y mod p.
Proof. apply Zbase.inverse_unique. Qed.

(* multiply by a value and its inverse: nothing happens *)
Lemma cancel_pair (r a i p : Z) : 0 < p -> (a * i) mod p = 1 mod p ->
  (((r * a) mod p) * i) mod p = r mod p.
Proof.
  intros Hp H. rewrite Zmult_mod_idemp_l. rewrite <- Z.mul_assoc.
  rewrite <- Zmult_mod_idemp_r, H, Zmult_mod_idemp_r. f_equal. lia.
Qed.

Lemma cancel_pair' (r a i p : Z) : 0 < p -> (a * i) mod p = 1 mod p ->
  (((r * i) mod p) * a) mod p = r mod p.
Proof. intros Hp H. apply cancel_pair; [assumption|now rewrite Z.mul_comm]. Qed.

Lemma dummy_pair_cancel (d p r : Z) : 0 < p ->
  let '(d', i) := dummy_pair d p in (((r * d') mod p) * i) mod p = r mod p.
Proof.
  intros Hp. unfold dummy_pair. destruct (invm d p) as [i|] eqn:E.
  - apply invm_some in E. apply cancel_pair; tauto.
  - rewrite !Z.mul_1_r. now rewrite Zmod_mod.
Qed.

Lemma invm_of_inverse (a i p : Z) : invm a p = Some i -> exists j, invm i p = Some j.
Proof.
  intros E. apply invm_some in E. destruct E as (Hp & Hi & H).
  apply invm_coprime; [assumption|].
  destruct (Z.eq_dec p 1) as [->|]; [apply Z.gcd_1_r|].
  apply (inverse_gcd i a); [lia|]. rewrite Z.mul_comm, H. apply Z.mod_1_l. lia.
Qed.

Lemma gcd_powm (m e p : Z) : 0 < p -> 0 <= e -> Z.gcd m p = 1 -> Z.gcd (powm m e p) p = 1.
Proof.
  intros Hp He G. rewrite powm_spec by lia. rewrite Z.gcd_mod by lia. rewrite Z.gcd_comm.
  apply Zgcd_1_rel_prime. apply rel_prime_sym. apply rel_prime_Zpower_r; [lia|].
  apply rel_prime_sym. now apply Zgcd_1_rel_prime.
Qed.

(* the three rounds "multiply by a value, then by its inverse" leave r0; baz is inverted twice, with the same result *)
Lemma spowm_chain (baz foo p : Z) : invm baz p = Some foo ->
  exists xx2, invm foo p = Some xx2 /\ forall r0 bar,
    (let res := (r0 * foo) mod p in
     let res := (res * xx2) mod p in
     let '(bar', xx3) := dummy_pair bar p in
     let res := (res * bar') mod p in
     let res := (res * xx3) mod p in
     let res := (res * baz) mod p in
     (res * foo) mod p) = r0 mod p.
Proof.
  intros E. destruct (invm_of_inverse _ _ _ E) as [xx2 E2]. exists xx2. split; [assumption|]. intros r0 bar.
  pose proof (invm_some _ _ _ E) as (Hp & _ & H1). pose proof (invm_some _ _ _ E2) as (_ & _ & H2).
  cbv zeta. pose proof (dummy_pair_cancel bar p ((r0 * foo) mod p * xx2 mod p) Hp) as D.
  destruct (dummy_pair bar p) as [bar' xx3].
  now rewrite (cancel_pair _ baz foo p Hp H1), D, !Zmod_mod, cancel_pair.
Qed.

Theorem spowm_ok (m x p : Z) : 0 < p -> Z.odd p = true -> Z.gcd m p = 1 ->
  exists r, spowm m x p = Ok r /\ powm_ref m x p = Some r.
Proof.
  intros Hp Hodd G. unfold spowm, powm_ref.
  rewrite <- Z.negb_odd, Hodd. cbn [negb].
  set (xx := if Z.sgn x =? 0 then 1 else Z.abs x).
  assert (Hxx : 0 < xx) by (unfold xx; destruct x; cbn; lia).
  pose proof (gcd_powm m xx p Hp ltac:(lia) G) as Gb.
  destruct (invm_coprime _ _ Hp Gb) as [foo E]. rewrite E.
  set (r0 := if Z.sgn x =? -1 then foo else if Z.sgn x =? 1 then powm m xx p else xx).
  destruct (spowm_chain _ _ _ E) as (xx2 & E2 & C). rewrite E2.
  specialize (C r0 (if Z.sgn x =? 1 then - x else -1)). cbv zeta in C.
  destruct (dummy_pair (if Z.sgn x =? 1 then - x else -1) p) as [bar' xx3].
  exists (r0 mod p). split; [now rewrite C|].
  pose proof (invm_some _ _ _ E) as (_ & Rf & _).
  unfold r0, xx in *. destruct x as [|x|x]; cbn [Z.sgn Z.eqb Z.ltb Z.compare Pos.eqb Z.abs Z.opp] in *.
  - reflexivity.
  - rewrite Z.mod_small; [reflexivity|]. apply powm_range; lia.
  - rewrite Z.mod_small by lia. exact E.
Qed.

Lemma powm_ref_spec (m x p r : Z) : 0 < p -> powm_ref m x p = Some r ->
  0 <= r < p /\ (0 <= x -> r = m ^ x mod p) /\ (x < 0 -> (r * m ^ (- x)) mod p = 1 mod p).
Proof.
  intros Hp. unfold powm_ref. destruct (Z.ltb_spec x 0) as [N|N].
  - intros E. apply invm_some in E. destruct E as (_ & R & H). split; [assumption|]. split; [lia|].
    intros _. rewrite powm_spec in H by lia. rewrite Zmult_mod_idemp_l in H. now rewrite Z.mul_comm.
  - intros E. inversion E; subst r. split; [apply powm_range; lia|]. split; [|lia].
    intros _. apply powm_spec; lia.
Qed.

Lemma size_nat_size (e : positive) : Z.of_nat (Pos.size_nat e) = Zpos (Pos.size e).
Proof.
  induction e as [e IH|e IH|]; cbn [Pos.size_nat Pos.size]; try reflexivity;
    rewrite Nat2Z.inj_succ, IH, Pos2Z.inj_succ; reflexivity.
Qed.

Lemma bitlen_size_nat (e : positive) : bitlen (Zpos e) = Z.of_nat (Pos.size_nat e).
Proof.
  unfold bitlen. cbn [Z.eqb Z.abs]. rewrite size_nat_size.
  destruct e; cbn [Z.log2 Pos.size]; rewrite ?Pos2Z.inj_succ; lia.
Qed.

Lemma bitlen_abs (x : Z) : bitlen (Z.abs x) = bitlen x.
Proof. unfold bitlen. rewrite Z.abs_involutive. destruct x; reflexivity. Qed.

Lemma max_pos : 1 <= TMCG_MAX_FPOWM_T.
Proof. unfold TMCG_MAX_FPOWM_T. lia. Qed.
Lemma max_ge_64 : 64 <= TMCG_MAX_FPOWM_T.   (* the bit length of an unsigned long is within the global limit *)
Proof. unfold TMCG_MAX_FPOWM_T. lia. Qed.
Global Opaque TMCG_MAX_FPOWM_T.   (* never compute Z.to_nat of the table size *)

Lemma sq_step (r c p : Z) (e : positive) : 0 < p ->
  (r * ((c * c) mod p) ^ Zpos e) mod p = (r * c ^ Zpos e~0) mod p.
Proof.
  intros Hp. rewrite <- Zmult_mod_idemp_r, pow_mod_base, Zmult_mod_idemp_r by lia.
  f_equal. f_equal. rewrite Pos2Z.inj_xO, Z.pow_mul_r, Z.pow_2_r by lia. reflexivity.
Qed.

Lemma fp_loop_spec (p : Z) : 0 < p -> forall e n cur res rest,
  (Pos.size_nat e <= n)%nat ->
  fp_loop (sqtab n cur p ++ rest) e res p = Some ((res * cur ^ Zpos e) mod p).
Proof.
  intros Hp. induction e as [e IH|e IH|]; intros n cur res rest Hn;
    (destruct n as [|n]; [cbn [Pos.size_nat] in Hn; lia|]); cbn [sqtab app fp_loop].
  - rewrite IH by (cbn [Pos.size_nat] in Hn; lia). f_equal.
    rewrite sq_step, Zmult_mod_idemp_l by lia. f_equal.
    rewrite Pos2Z.inj_xI, Pos2Z.inj_xO, Z.pow_add_r, Z.pow_1_r by lia. ring.
  - rewrite IH by (cbn [Pos.size_nat] in Hn; lia). f_equal. now apply sq_step.
  - now rewrite Z.pow_1_r.
Qed.

(* the loop of fspowm computes what the loop of fpowm computes, and a dummy value beside it *)
Lemma fsp_loop_fst (p : Z) (tab : list Z) : forall e res bar, option_map fst (fsp_loop tab e res bar p) = fp_loop tab e res p.
Proof. induction tab as [|t0 tl IH]; intros [e|e|] res bar; cbn [fsp_loop fp_loop]; try reflexivity; apply IH. Qed.

Lemma precompute_shape (m p t : Z) (tab : list Z) : fpowm_precompute m p t = Some tab ->
  p <> 0 /\ exists tl, tab = m :: tl /\
  tab = sqtab (filled t) m p ++ repeat 0 (Z.to_nat TMCG_MAX_FPOWM_T - filled t).
Proof.
  unfold fpowm_precompute. destruct (Z.eqb_spec p 0) as [|NZ]; [discriminate|].
  intros H; injection H as <-. split; [assumption|].
  assert (F : exists k, filled t = S k).
  { unfold filled. pose proof max_pos. exists (Nat.pred (Z.to_nat (Z.max 1 (Z.min t TMCG_MAX_FPOWM_T)))). lia. }
  destruct F as [k ->]. cbn [sqtab app]. eauto.
Qed.

(* a table that covers the exponent: the walk multiplies the squares selected by the bits of e *)
Lemma table_walk (m p t x : Z) (tab : list Z) : 0 < p ->
  fpowm_precompute m p t = Some tab -> bitlen x <= Z.min t TMCG_MAX_FPOWM_T ->
  forall e, Z.abs x = Zpos e -> forall res, fp_loop tab e res p = Some ((res * m ^ Zpos e) mod p).
Proof.
  intros Hp Ht Hb e E res. destruct (precompute_shape _ _ _ _ Ht) as (_ & _ & _ & ->).
  apply fp_loop_spec; [assumption|]. rewrite <- bitlen_abs, E, bitlen_size_nat in Hb. unfold filled. lia.
Qed.

Lemma precompute_length (m p t : Z) (tab : list Z) : fpowm_precompute m p t = Some tab ->
  length tab = Z.to_nat TMCG_MAX_FPOWM_T.
Proof.
  intros H. apply precompute_shape in H. destruct H as (_ & _ & _ & ->).
  rewrite app_length, repeat_length.
  assert (length (sqtab (filled t) m p) = filled t).
  { generalize (filled t) m. induction n; intros; cbn [sqtab length]; [reflexivity|now rewrite IHn]. }
  assert (filled t <= Z.to_nat TMCG_MAX_FPOWM_T)%nat by (unfold filled; pose proof max_pos; lia).
  lia.
Qed.

Lemma invm_1 (p : Z) : 1 < p -> invm 1 p = Some 1.
Proof. intros Hp. apply invm_eq; [assumption|lia|now apply Z.mod_1_l]. Qed.

Definition outcome_of (o : option Z) : outcome := match o with Some r => Ok r | None => ThrowInvert end.

Theorem fpowm_eq (m x p t : Z) (tab : list Z) : 1 < p ->
  fpowm_precompute m p t = Some tab -> bitlen x <= Z.min t TMCG_MAX_FPOWM_T ->
  fpowm tab m x p = outcome_of (powm_ref m x p).
Proof.
  intros Hp Ht Hb. pose proof (table_walk m p t x tab ltac:(lia) Ht Hb) as W.
  destruct (precompute_shape _ _ _ _ Ht) as (_ & tl & -> & _).
  unfold fpowm, powm_ref. rewrite Z.eqb_refl. cbn [negb].
  destruct (Z.leb_spec (bitlen x) TMCG_MAX_FPOWM_T) as [_|]; [|lia].
  destruct x as [|e|e]; cbn [Z.abs Z.ltb Z.compare Z.opp outcome_of] in *.
  - cbn [powm]. now rewrite Z.mod_1_l by lia.
  - now rewrite (W e eq_refl), Z.mul_1_l, powm_spec by lia.
  - rewrite (W e eq_refl), Z.mul_1_l, powm_spec by lia. now destruct (invm _ p).
Qed.

(* an unsigned exponent takes the same path through tmcg_mpz_fpowm *)
Lemma fpowm_ui_fpowm (tab : list Z) (m x p : Z) : 0 <= x -> fpowm_ui tab m x p = fpowm tab m x p.
Proof. intros Hx. destruct x; [reflexivity..|lia]. Qed.

Theorem fpowm_ui_eq (m x p t : Z) (tab : list Z) : 1 < p -> 0 <= x ->
  fpowm_precompute m p t = Some tab -> bitlen x <= Z.min t TMCG_MAX_FPOWM_T ->
  fpowm_ui tab m x p = Ok (m ^ x mod p).
Proof.
  intros Hp Hx Ht Hb. rewrite fpowm_ui_fpowm, (fpowm_eq m x p t) by assumption.
  unfold powm_ref. destruct (Z.ltb_spec x 0); [lia|]. cbn [outcome_of]. now rewrite powm_spec by lia.
Qed.

Theorem fspowm_eq (m x p t : Z) (tab : list Z) : 1 < p ->
  fpowm_precompute m p t = Some tab -> bitlen x <= Z.min t TMCG_MAX_FPOWM_T ->
  fspowm tab m x p =
    match invm (powm m (Z.abs x) p) p with
    | None => ThrowInvert
    | Some i => Ok (if x <? 0 then i else powm m x p)
    end.
Proof.
  intros Hp Ht Hb. pose proof (table_walk m p t x tab ltac:(lia) Ht Hb) as W.
  destruct (precompute_shape _ _ _ _ Ht) as (_ & tl & -> & _).
  unfold fspowm. rewrite Z.eqb_refl. cbn [negb].
  destruct (Z.leb_spec (bitlen x) TMCG_MAX_FPOWM_T) as [_|]; [|lia].
  (* the second component bar is whatever the loop left: it only feeds dummy_pair, which cancels any value *)
  assert (St : exists bar,
    match Z.abs x with
    | Z.pos e => fsp_loop (m :: tl) e 1 (if x <? 0 then 0 else - x) p
    | _ => Some (1, (1 * m) mod p)
    end = Some (powm m (Z.abs x) p, bar)).
  { destruct (Z.abs x) as [|e|e] eqn:EA; [eexists; cbn [powm]; now rewrite Z.mod_1_l by lia| |lia].
    pose proof (fsp_loop_fst p (m :: tl) e 1 (if x <? 0 then 0 else - x)) as F.
    rewrite (W e eq_refl), Z.mul_1_l, <- powm_spec in F by lia.
    destruct (fsp_loop _ e 1 _ p) as [[v bar]|]; [|discriminate]. exists bar. now injection F as ->. }
  destruct St as [bar St]. rewrite St.
  destruct (invm (powm m (Z.abs x) p) p) as [foo|] eqn:EI; [|reflexivity].
  pose proof (invm_some _ _ _ EI) as (_ & Rf & _).
  pose proof (powm_range m (Z.abs x) p ltac:(lia) (Z.abs_nonneg x)) as Rp.
  set (baz := if x <? 0 then powm m (Z.abs x) p else foo).
  set (res := if x <? 0 then foo else powm m (Z.abs x) p).
  pose proof (dummy_pair_cancel bar p res ltac:(lia)) as D1.
  destruct (dummy_pair bar p) as [bar' foo1].
  pose proof (dummy_pair_cancel baz p res ltac:(lia)) as D2.
  destruct (dummy_pair baz p) as [baz' foo2].
  rewrite (Z.mul_comm bar' res), D1. rewrite Zmult_mod_idemp_r, (Z.mul_comm baz' res), D2.
  f_equal. unfold res. destruct (Z.ltb_spec x 0); rewrite Z.mod_small by lia; [reflexivity|].
  now rewrite Z.abs_eq by lia.
Qed.

Lemma powm_ref_some (m x p : Z) : 0 < p -> Z.gcd m p = 1 -> exists r, powm_ref m x p = Some r.
Proof.
  intros Hp G. unfold powm_ref. destruct (Z.ltb_spec x 0); [|eauto].
  apply invm_coprime; [assumption|]. apply gcd_powm; lia.
Qed.

Corollary fspowm_ok (m x p t : Z) (tab : list Z) : 1 < p -> Z.gcd m p = 1 ->
  fpowm_precompute m p t = Some tab -> bitlen x <= Z.min t TMCG_MAX_FPOWM_T ->
  exists r, fspowm tab m x p = Ok r /\ powm_ref m x p = Some r.
Proof.
  intros Hp G Ht Hb. rewrite (fspowm_eq m x p t tab Hp Ht Hb). unfold powm_ref.
  pose proof (gcd_powm m (Z.abs x) p ltac:(lia) (Z.abs_nonneg x) G) as Gb.
  destruct (invm_coprime (powm m (Z.abs x) p) p ltac:(lia) Gb) as [i E]. rewrite E.
  destruct (Z.ltb_spec x 0).
  - exists i. split; [reflexivity|]. now rewrite <- Z.abs_neq by lia.
  - eexists; split; reflexivity.
Qed.

Corollary fpowm_ok (m x p t : Z) (tab : list Z) : 1 < p -> Z.gcd m p = 1 ->
  fpowm_precompute m p t = Some tab -> bitlen x <= Z.min t TMCG_MAX_FPOWM_T ->
  exists r, fpowm tab m x p = Ok r /\ powm_ref m x p = Some r.
Proof.
  intros Hp G Ht Hb. rewrite (fpowm_eq m x p t tab Hp Ht Hb).
  destruct (powm_ref_some m x p ltac:(lia) G) as [r E]. rewrite E. exists r. split; reflexivity.
Qed.

Theorem wrong_base_throws (m m' x p t : Z) (tab : list Z) :
  fpowm_precompute m' p t = Some tab -> m <> m' ->
  fpowm tab m x p = ThrowWrongBase /\ fpowm_ui tab m x p = ThrowWrongBase /\ fspowm tab m x p = ThrowWrongBase.
Proof.
  intros Ht Hm. destruct (precompute_shape _ _ _ _ Ht) as (_ & tl & -> & _).
  unfold fpowm, fpowm_ui, fspowm. destruct (Z.eqb_spec m m'); [contradiction|]. cbn [negb]. auto.
Qed.

Theorem too_large_throws (m x p t : Z) (tab : list Z) :
  fpowm_precompute m p t = Some tab -> TMCG_MAX_FPOWM_T < bitlen x ->
  fpowm tab m x p = ThrowTooLarge /\ fspowm tab m x p = ThrowTooLarge.
Proof.
  intros Ht Hb. destruct (precompute_shape _ _ _ _ Ht) as (_ & tl & -> & _).
  unfold fpowm, fspowm. rewrite Z.eqb_refl. cbn [negb].
  destruct (Z.leb_spec (bitlen x) TMCG_MAX_FPOWM_T); [lia|]. auto.
Qed.

Theorem spowm_even_throws (m x p : Z) : Z.even p = true -> spowm m x p = ThrowEven.
Proof. intros H. unfold spowm. now rewrite H. Qed.

(* the gap: table shorter than the exponent, exponent within the global limit *)
Lemma fp_loop_zeros (p : Z) : forall e k res, (Pos.size_nat e <= k)%nat ->
  fp_loop (repeat 0 k) e res p = Some 0.
Proof.
  induction e as [e IH|e IH|]; intros k res Hk;
    (destruct k as [|k]; [cbn [Pos.size_nat] in Hk; lia|]); cbn [repeat fp_loop].
  - apply IH. cbn [Pos.size_nat] in Hk; lia.
  - apply IH. cbn [Pos.size_nat] in Hk; lia.
  - now rewrite Z.mul_0_r, Zmod_0_l.
Qed.

Lemma fp_loop_gap (p : Z) : forall e n k cur res, (n < Pos.size_nat e)%nat -> (Pos.size_nat e <= n + k)%nat ->
  fp_loop (sqtab n cur p ++ repeat 0 k) e res p = Some 0.
Proof.
  induction e as [e IH|e IH|]; intros n k cur res H1 H2.
  - destruct n as [|n]; [apply fp_loop_zeros; lia|]. cbn [sqtab app fp_loop].
    apply IH; cbn [Pos.size_nat] in *; lia.
  - destruct n as [|n]; [apply fp_loop_zeros; lia|]. cbn [sqtab app fp_loop].
    apply IH; cbn [Pos.size_nat] in *; lia.
  - destruct n as [|n]; [apply fp_loop_zeros; lia|]. cbn [Pos.size_nat] in H1. lia.
Qed.

(* a positive exponent longer than the table but within TMCG_MAX_FPOWM_T silently yields 0 *)
Theorem fpowm_gap_zero (m x p t : Z) (tab : list Z) :
  fpowm_precompute m p t = Some tab -> 1 <= t -> 0 < x -> t < bitlen x <= TMCG_MAX_FPOWM_T ->
  fpowm tab m x p = Ok 0 /\ fpowm_ui tab m x p = Ok 0.
Proof.
  intros Ht H1 Hx Hb. rewrite fpowm_ui_fpowm by lia. cut (fpowm tab m x p = Ok 0); [now split|].
  destruct (precompute_shape _ _ _ _ Ht) as (_ & tl & E1 & E2).
  unfold fpowm. rewrite E1 at 1. rewrite Z.eqb_refl. cbn [negb].
  destruct (Z.leb_spec (bitlen x) TMCG_MAX_FPOWM_T) as [_|]; [|lia].
  destruct x as [|e|e]; try lia. cbn [Z.abs Z.ltb Z.compare].
  rewrite bitlen_size_nat in Hb. pose proof max_pos.
  rewrite E2, fp_loop_gap; [auto| |]; unfold filled; lia.
Qed.

Theorem fpowm_gap_refuted :
  exists m x p t tab, 1 < p /\ Z.gcd m p = 1 /\ fpowm_precompute m p t = Some tab /\ 1 <= t /\
    bitlen x <= TMCG_MAX_FPOWM_T /\ 0 < x /\
    fpowm tab m x p = Ok 0 /\ m ^ x mod p <> 0.
Proof.
  exists 2, 2, 7, 1. eexists. split; [lia|]. split; [reflexivity|]. split; [reflexivity|].
  split; [lia|]. pose proof max_ge_64. split; [cbn; lia|]. split; [lia|]. split; [|cbn; lia].
  apply (fpowm_gap_zero 2 2 7 1); [reflexivity|lia|lia|cbn; lia].
Qed.
