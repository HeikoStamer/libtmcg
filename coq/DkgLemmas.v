(* DkgLemmas: the key-combination step of GJKR/CGJKR key generation and the share refresh: the share x_i = sum_{j in QUAL} s_ji
   is the value of the joint polynomial F = sum_{j in QUAL} f_j, y = prod g^z_j = g^F(0), so any t+1 key shares interpolate
   to log_g y (dkg_key); adding a sharing of zero changes the shares but not the secret (refresh_preserves). *)
From Coq Require Import ZArith Znumtheory Lia List Bool ZifyBool.
From LT Require Import Zbase CoinFlipArith VssModel VssLemmas VssLagrange DkgModel.
Import ListNotations.
Local Open Scope Z_scope.

Lemma padd_pladd f g : padd f g = pladd f g.
Proof. revert g. induction f as [|a f IH]; intros [|b g]; cbn [padd pladd]; congruence. Qed.

(* the joint polynomial of the qualified dealers; P j = coefficient list of dealer j *)
Definition joint (P : Z -> list Z) (qual : list Z) : list Z := fold_right (fun j acc => padd (P j) acc) [] qual.

Lemma peval_joint P qual x : peval (joint P qual) x = fold_right (fun j a => peval (P j) x + a) 0 qual.
Proof.
  induction qual as [|j r IH]; [reflexivity|]. cbn [joint fold_right]. fold (joint P r).
  now rewrite padd_pladd, peval_pladd, IH.
Qed.

Lemma sum_qual_spec q qual s : sum_qual q qual s = fold_right (fun j a => nthz s j + a) 0 qual mod q.
Proof. exact (fold_addm (nthz s) q qual 0). Qed.

(* every share of the key is the value of the joint polynomial at the party's point *)
Theorem dkg_share_joint q P qual s x : 0 < q ->
  (forall j, In j qual -> nthz s j mod q = poly_eval q (P j) x) ->
  sum_qual q qual s = poly_eval q (joint P qual) x.
Proof.
  intros _ Hs. rewrite sum_qual_spec, poly_eval_peval, peval_joint.
  induction qual as [|j r IH]; [reflexivity|]. cbn [fold_right].
  rewrite Zplus_mod, IH, (Hs j), poly_eval_peval, <- Zplus_mod by (now left || (intros; apply Hs; now right)). reflexivity.
Qed.

Lemma joint_length P qual t : (forall j, In j qual -> (length (P j) <= t)%nat) -> (length (joint P qual) <= t)%nat.
Proof.
  induction qual as [|j r IH]; intros H; cbn [joint fold_right]; [cbn; lia|]. fold (joint P r).
  rewrite padd_pladd, length_pladd. specialize (IH (fun j' Hj => H j' (or_intror Hj))). specialize (H j (or_introl eq_refl)). lia.
Qed.

(* any two sets of at least t+1 honest key shares reconstruct one and the same secret F(0) *)
Theorem dkg_subsets_same_secret q P qual tdeg pts r : prime q ->
  (forall j, In j qual -> (length (P j) <= tdeg)%nat) -> (tdeg <= length pts)%nat ->
  NoDup (map fst pts) ->
  (forall x y, In (x, y) pts -> 0 <= x < q /\ exists s, y = sum_qual q qual s /\ forall j, In j qual -> nthz s j mod q = poly_eval q (P j) x) ->
  lagrange0 q pts = Some r -> r = poly_eval q (joint P qual) 0.
Proof.
  intros Hq HP Hlen Hnd Hpts E. assert (Hq0 : 0 < q) by (destruct Hq; lia).
  apply (lagrange0_sound q (joint P qual) pts r Hq); try assumption.
  - pose proof (joint_length P qual tdeg HP). lia.
  - intros x y Hin. destruct (Hpts x y Hin) as (Rx & s & -> & Hs). split; [assumption|].
    rewrite (dkg_share_joint q P qual s x Hq0 Hs). apply Z.mod_small, poly_eval_range, Hq0.
Qed.

Lemma peval_0 f : peval f 0 = hd 0 f.
Proof. destruct f; cbn [peval hd]; lia. Qed.

Section Group.
  Variables p q g : Z.
  Hypothesis Hp : 1 < p.
  Hypothesis Hq : prime q.
  Hypothesis Hg : powm g q p = 1.
  Let q_pos : 1 < q. Proof. destruct Hq. lia. Qed.

  (* prod_j g^z_j = g^(sum z_j), and sum z_j = F(0) *)
  Lemma prod_keys P qual ys :
    (forall j, In j qual -> Forall (fun c => 0 <= c) (P j) /\ nthz ys j = powm g (hd 0 (P j)) p) ->
    0 <= peval (joint P qual) 0 /\
    fold_right (fun j a => nthz ys j * a) 1 qual mod p = powm g (peval (joint P qual) 0) p.
  Proof.
    rewrite peval_joint. induction qual as [|j r IH]; intros H; cbn [fold_right].
    - split; [lia|reflexivity].
    - destruct (IH (fun j' Hj => H j' (or_intror Hj))) as [N E]. destruct (H j (or_introl eq_refl)) as [Pn ->].
      pose proof (peval_nonneg (P j) 0 Pn ltac:(lia)) as N0. rewrite peval_0 in N0 |- *. split; [lia|].
      now rewrite <- Zmult_mod_idemp_r, E, <- powm_add by lia.
  Qed.

  (* the public key is g to the secret that the shares reconstruct *)
  Theorem dkg_pubkey P qual ys : qual <> [] ->
    (forall j, In j qual -> Forall (fun c => 0 <= c) (P j) /\ nthz ys j = powm g (hd 0 (P j)) p) ->
    dkg_y p qual ys = powm g (poly_eval q (joint P qual) 0) p.
  Proof.
    intros _ H. destruct (prod_keys P qual ys H) as [N E].
    rewrite poly_eval_peval, (powm_mod_order p q g), <- E by (assumption || lia).
    unfold dkg_y. rewrite <- (Z.mod_1_l p Hp) at 1. rewrite fold_mulm. now rewrite Z.mul_1_l.
  Qed.
End Group.

(* the key: y = g^F(0), and any t+1 key shares interpolate to F(0) = log_g y *)
Theorem dkg_key p q g P qual ys tdeg pts r :
  1 < p -> prime q -> powm g q p = 1 -> qual <> [] ->
  (forall j, In j qual -> Forall (fun c => 0 <= c) (P j) /\ (length (P j) <= tdeg)%nat /\ nthz ys j = powm g (hd 0 (P j)) p) ->
  (tdeg <= length pts)%nat -> NoDup (map fst pts) ->
  (forall x y, In (x, y) pts -> 0 <= x < q /\ exists s, y = sum_qual q qual s /\ forall j, In j qual -> nthz s j mod q = poly_eval q (P j) x) ->
  lagrange0 q pts = Some r ->
  powm g r p = dkg_y p qual ys.
Proof.
  intros Hp Hq Hg Hne HP Hlen Hnd Hpts E.
  rewrite (dkg_subsets_same_secret q P qual tdeg pts r Hq) by (try assumption; intros j Hj; apply HP; assumption).
  symmetry. apply (dkg_pubkey p q g Hp Hq Hg); [assumption|]. intros j Hj. destruct (HP j Hj) as (A & _ & C). now split.
Qed.

(* share refresh: adding the shares of a sharing of zero keeps the secret *)
Theorem refresh_preserves q F Zp x : 0 < q -> hd 0 Zp = 0 ->
  refresh_share q (poly_eval q F x) (poly_eval q Zp x) = poly_eval q (padd F Zp) x /\
  poly_eval q (padd F Zp) 0 = poly_eval q F 0.
Proof.
  intros _ H0. unfold refresh_share. rewrite !poly_eval_peval, padd_pladd, !peval_pladd. split.
  - now rewrite <- Zplus_mod.
  - now rewrite (peval_0 Zp), H0, Z.add_0_r.
Qed.

(* the refreshed shares differ from the old ones wherever the zero polynomial does not vanish *)
Theorem refresh_changes q x z : 0 < q -> 0 <= x < q -> z mod q <> 0 -> refresh_share q x z <> x.
Proof.
  intros Hq Hx Hz E. apply Hz. unfold refresh_share in E. replace z with (x + z - x) by ring.
  rewrite Zminus_mod, E, (Z.mod_small x q), Z.sub_diag by lia. reflexivity.
Qed.
