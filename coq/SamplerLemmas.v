(* SamplerLemmas: proofs about SamplerModel (C07; used by C02). *)
From Coq Require Import ZArith NArith List Bool Lia ZifyBool Permutation.
From LT Require Import ListFacts gen_Consts SamplerModel.
Import ListNotations.
Local Open Scope N_scope.

Lemma bind_ret {A B} (x : res A) (f : A -> res B) b : bind x f = Ret b -> exists a, x = Ret a /\ f a = Ret b.
Proof. destruct x; try discriminate. cbn. eauto. Qed.

(* the unsigned subtraction does not wrap *)
Lemma sub_w_small a b : b <= a < W -> sub_w a b = a - b.
Proof.
  intros H. unfold sub_w. rewrite (N.mod_small a), (N.mod_small b) by lia.
  replace (a + W - b) with (a - b + 1 * W) by lia. rewrite N.mod_add by discriminate. apply N.mod_small. lia.
Qed.

Lemma W_div_bounds m : 2 <= m < W -> 1 <= W / m /\ (W / m) * m <= W < (W / m) * m + m.
Proof.
  intros H. split; [apply N.div_le_lower_bound; lia|].
  pose proof (N.mul_div_le W m). pose proof (N.mul_succ_div_gt W m). lia.
Qed.

Lemma div_mod_mul_add k m t : t < m -> (k * m + t) / m = k /\ (k * m + t) mod m = t.
Proof. intros Ht. split; symmetry; [apply N.div_unique with (r := t) | apply N.mod_unique with (q := k)]; lia. Qed.

Lemma nomodbias_div_spec m : 2 <= m < W -> nomodbias_div m = W / m - 1.
Proof.
  intros Hm. unfold nomodbias_div, add_w, ulong_max.
  rewrite sub_w_small by lia.
  rewrite (N.mod_small (W - 1 - m + 1)) by lia.
  pose proof (proj1 (W_div_bounds m Hm)).
  symmetry. apply N.div_unique with (r := W mod m).
  - apply N.mod_lt; lia.
  - pose proof (N.div_mod W m). nia.
Qed.

Theorem nomodbias_max_spec m : 2 <= m < W -> nomodbias_max m = (W / m) * m - 1.
Proof.
  intros Hm. unfold nomodbias_max. rewrite nomodbias_div_spec by assumption.
  pose proof (W_div_bounds m Hm) as HK.
  assert (W / m < W) by (apply N.div_lt; lia).
  unfold add_w. replace (W / m - 1 + 1) with (W / m) by lia. rewrite (N.mod_small (W / m)) by lia.
  unfold mul_w.
  destruct (N.eq_dec (W / m * m) W) as [E | NE].
  - rewrite E, N.mod_same by lia. reflexivity.   (* the product wraps to 0, and 0 - 1 wraps to W - 1 *)
  - rewrite (N.mod_small (W / m * m)) by lia. apply sub_w_small. lia.
Qed.

Theorem nomodbias_accept_iff m w : 2 <= m < W -> (nomodbias_accept m w = true <-> w < (W / m) * m).
Proof.
  intros Hm. unfold nomodbias_accept. rewrite nomodbias_max_spec by assumption.
  pose proof (proj1 (W_div_bounds m Hm)).
  assert (1 <= W / m * m) by nia.
  destruct (N.ltb_spec (W / m * m - 1) w); cbn; split; intros; try discriminate; try lia.
Qed.

(* at least half of all words are accepted: the loop ends after 2 iterations on average, at worst *)
Theorem nomodbias_accept_half m : 2 <= m < W -> W < 2 * ((W / m) * m).
Proof.
  intros Hm. pose proof (W_div_bounds m Hm).
  destruct (N.le_gt_cases (2 * m) W) as [L | G]; nia.
Qed.

(* every residue t has exactly W/m accepted raw words: w |-> (w / m, w mod m) is a bijection between the
   accepted words and [0, W/m) x [0, m), with inverse (k, t) |-> k * m + t *)
Theorem nomodbias_fibre_forward m w : 2 <= m < W -> w < W -> nomodbias_accept m w = true ->
  w / m < W / m /\ w mod m < m /\ w = (w / m) * m + w mod m.
Proof.
  intros Hm Hw A. apply nomodbias_accept_iff in A; [|assumption].
  repeat split.
  - apply N.div_lt_upper_bound; [lia|]. lia.
  - apply N.mod_lt; lia.
  - pose proof (N.div_mod w m ltac:(lia)). lia.
Qed.

Theorem nomodbias_fibre_backward m k t : 2 <= m < W -> k < W / m -> t < m ->
  k * m + t < W /\ nomodbias_accept m (k * m + t) = true /\ (k * m + t) / m = k /\ (k * m + t) mod m = t.
Proof.
  intros Hm Hk Ht. pose proof (W_div_bounds m Hm).
  assert (k * m + t < W / m * m) by nia.
  split; [lia|]. split; [now apply nomodbias_accept_iff | now apply div_mod_mul_add].
Qed.

Corollary nomodbias_residue_words m t w : 2 <= m < W -> t < m ->
  ((w < W /\ nomodbias_accept m w = true /\ w mod m = t) <-> exists k, k < W / m /\ w = k * m + t).
Proof.
  intros Hm Ht. split.
  - intros (Hw & A & E). exists (w / m). destruct (nomodbias_fibre_forward m w Hm Hw A) as (a & b & c).
    split; [assumption | lia].
  - intros (k & Hk & ->). destruct (nomodbias_fibre_backward m k t Hm Hk Ht) as (a & b & c & d). auto.
Qed.

Lemma fibre_inj m k k' t t' : t < m -> t' < m -> k * m + t = k' * m + t' -> k = k' /\ t = t'.
Proof.
  intros Ht Ht' E. pose proof (proj1 (div_mod_mul_add k m t Ht)) as A.
  rewrite E, (proj1 (div_mod_mul_add k' m t' Ht')) in A. subst k'. split; [reflexivity | lia].
Qed.

Theorem fibre_count_spec n m t v : 0 < m -> t < m ->
  ((v < n /\ v mod m = t) <-> exists k, k < fibre_count n m t /\ v = k * m + t).
Proof.
  intros Hm Ht. unfold fibre_count.
  pose proof (N.div_mod n m ltac:(lia)) as D. pose proof (N.mod_lt n m ltac:(lia)) as R.
  set (a := n / m) in *. set (b := n mod m) in *. clearbody a b. split.
  - intros (Hv & E). exists (v / m). pose proof (N.div_mod v m ltac:(lia)) as Dv. rewrite E in Dv.
    split; [|lia]. destruct (N.ltb_spec t b); nia.
  - intros (k & Hk & ->). split; [destruct (N.ltb_spec t b); nia|].
    now apply div_mod_mul_add.
Qed.

Lemma fibre_count_bounds n m t : 0 < m -> n / m <= fibre_count n m t <= n / m + 1.
Proof. intros. unfold fibre_count. destruct (t <? n mod m); lia. Qed.

Lemma fibre_count_sum_exact n m : 0 < m -> m * (n / m) + n mod m = n.
Proof. intros. symmetry. apply N.div_mod. lia. Qed.

Definition is_bytes (bs : list N) : Prop := Forall (fun b => b < 256) bs.

Lemma le_value_lt bs : is_bytes bs -> le_value bs < 256 ^ N.of_nat (length bs).
Proof.
  induction 1 as [|b bs Hb _ IH]; [cbn; lia|].
  cbn [le_value fold_right length]. fold (le_value bs).
  rewrite Nat2N.inj_succ, N.pow_succ_r'. lia.
Qed.

Lemma le_value_inj bs bs' : is_bytes bs -> is_bytes bs' -> length bs = length bs' ->
  le_value bs = le_value bs' -> bs = bs'.
Proof.
  intros H. revert bs'. induction H as [|b bs Hb _ IH]; intros [|b' bs'] H' L E; try discriminate; [reflexivity|].
  inversion H' as [|? ? Hb' Hbs']; subst. cbn [le_value fold_right] in E. fold (le_value bs) in E. fold (le_value bs') in E.
  assert (b = b' /\ le_value bs = le_value bs') as [-> E'] by lia.
  f_equal. apply IH; auto.
Qed.

Fixpoint le_bytes (k : nat) (v : N) : list N :=
  match k with O => [] | S k' => v mod 256 :: le_bytes k' (v / 256) end.

Lemma le_bytes_spec k : forall v, is_bytes (le_bytes k v) /\ length (le_bytes k v) = k /\
  le_value (le_bytes k v) = v mod 256 ^ N.of_nat k.
Proof.
  induction k as [|k IH]; intros v.
  - cbn. repeat split; [constructor | now rewrite N.mod_1_r].
  - destruct (IH (v / 256)) as (B & L & V). cbn [le_bytes]. repeat split.
    + constructor; [apply N.mod_lt; lia | assumption].
    + cbn. now rewrite L.
    + cbn [le_value fold_right]. fold (le_value (le_bytes k (v / 256))). rewrite V.
      rewrite Nat2N.inj_succ, N.pow_succ_r'.
      rewrite N.mod_mul_r by (try apply N.pow_nonzero; lia). reflexivity.
Qed.

(* the 2^64 words and the 8-byte strings correspond one to one: uniform bytes give uniform words *)
Theorem word_bytes_bijection :
  (forall bs, is_bytes bs -> length bs = 8%nat -> le_value bs < W) /\
  (forall bs bs', is_bytes bs -> is_bytes bs' -> length bs = 8%nat -> length bs' = 8%nat -> le_value bs = le_value bs' -> bs = bs') /\
  (forall w, w < W -> exists bs, is_bytes bs /\ length bs = 8%nat /\ le_value bs = w).
Proof.
  repeat split.
  - intros bs B L. pose proof (le_value_lt bs B) as H. rewrite L in H. exact H.
  - intros bs bs' B B' L L' E. apply le_value_inj; congruence.
  - intros w Hw. exists (le_bytes 8 w). destruct (le_bytes_spec 8 w) as (B & L & V).
    repeat split; try assumption. rewrite V. apply N.mod_small. exact Hw.
Qed.

Lemma be_le_value bs : be_value bs = le_value (rev bs).
Proof.
  unfold be_value, le_value. rewrite fold_left_rev_right.
  generalize 0. induction bs as [|b bs IH]; intros a; [reflexivity|].
  cbn [fold_left]. rewrite IH. f_equal. lia.
Qed.

Lemma be_value_lt bs : is_bytes bs -> be_value bs < 256 ^ N.of_nat (length bs).
Proof. intros. rewrite be_le_value, <- rev_length. apply le_value_lt. now apply Forall_rev. Qed.

Lemma be_value_inj bs bs' : is_bytes bs -> is_bytes bs' -> length bs = length bs' -> be_value bs = be_value bs' -> bs = bs'.
Proof.
  intros B B' L E. rewrite !be_le_value in E. apply le_value_inj in E; try (now apply Forall_rev).
  - rewrite <- (rev_involutive bs), <- (rev_involutive bs'). now f_equal.
  - now rewrite !rev_length.
Qed.

Lemma be_value_surj k v : v < 256 ^ N.of_nat k -> exists bs, is_bytes bs /\ length bs = k /\ be_value bs = v.
Proof.
  intros Hv. destruct (le_bytes_spec k v) as (B & L & V). exists (rev (le_bytes k v)). repeat split.
  - now apply Forall_rev.
  - now rewrite rev_length.
  - rewrite be_le_value, rev_involutive, V. now apply N.mod_small.
Qed.

Lemma draw_spec k s b r : draw k s = Ret (b, r) -> s = b ++ r /\ length b = k /\ (length r + k = length s)%nat.
Proof.
  unfold draw. destruct (Nat.ltb_spec (length s) k); [discriminate|]. intros E. injection E as <- <-.
  rewrite firstn_skipn, firstn_length, skipn_length. repeat split; lia.
Qed.

Lemma draw_app k b r : length b = k -> draw k (b ++ r) = Ret (b, r).
Proof.
  intros L. unfold draw. rewrite app_length.
  destruct (Nat.ltb_spec (length b + length r) k); [lia|].
  now rewrite firstn_app_exact, skipn_app_exact.
Qed.

Lemma grandom_ui_spec s w r : grandom_ui s = Ret (w, r) ->
  exists b, s = b ++ r /\ length b = 8%nat /\ w = le_value b.
Proof.
  unfold grandom_ui. intros E. apply bind_ret in E as ([b r'] & D & E). injection E as <- <-. apply draw_spec in D. exists b. intuition.
Qed.

Lemma grandom_ui_app b r : length b = 8%nat -> grandom_ui (b ++ r) = Ret (le_value b, r).
Proof. intros L. unfold grandom_ui. now rewrite draw_app. Qed.

Lemma nomodbias_loop_fuel max : forall f1 f2 s, (length s < f1)%nat -> (length s < f2)%nat ->
  nomodbias_loop f1 max s = nomodbias_loop f2 max s.
Proof.
  induction f1 as [|f1 IH]; intros [|f2] s L1 L2; try lia.
  cbn [nomodbias_loop]. destruct (grandom_ui s) as [[w r]| | | | |] eqn:G; cbn; try reflexivity.
  destruct (max <? w); [|reflexivity].
  apply grandom_ui_spec in G. destruct G as (b & -> & Lb & _). rewrite app_length in *. apply IH; lia.
Qed.

Theorem random_mod_step m b r : 2 <= m -> length b = 8%nat ->
  random_mod m (b ++ r) = if nomodbias_accept m (le_value b) then Ret (le_value b mod m, r) else random_mod m r.
Proof.
  intros Hm L. unfold random_mod, grandom_ui_nomodbias, nomodbias_accept. destruct (N.ltb_spec m 2); [lia|].
  (* give the right side the fuel the left side will have after one step: it is not of the form S _, so cbn unfolds the left loop only *)
  rewrite (nomodbias_loop_fuel _ (S (length r)) (length (b ++ r)) r) by (rewrite ?app_length; lia).
  cbn [nomodbias_loop]. rewrite grandom_ui_app by assumption. cbn [bind fst snd].
  now destruct (nomodbias_max m <? le_value b).
Qed.

Corollary random_mod_accept m b r : 2 <= m -> length b = 8%nat -> nomodbias_accept m (le_value b) = true ->
  random_mod m (b ++ r) = Ret (le_value b mod m, r).
Proof. intros Hm L A. now rewrite random_mod_step, A. Qed.

Corollary random_mod_reject m b r : 2 <= m -> length b = 8%nat -> nomodbias_accept m (le_value b) = false ->
  random_mod m (b ++ r) = random_mod m r.
Proof. intros Hm L A. now rewrite random_mod_step, A. Qed.

Lemma nomodbias_loop_ret max : forall f s w r, nomodbias_loop f max s = Ret (w, r) ->
  w <= max /\ exists pre, s = pre ++ r /\ (length pre >= 8)%nat.
Proof.
  induction f as [|f IH]; intros s w r; [discriminate|].
  cbn [nomodbias_loop]. destruct (grandom_ui s) as [[w0 r0]| | | | |] eqn:G; cbn; try discriminate.
  apply grandom_ui_spec in G. destruct G as (b & -> & Lb & ->).
  destruct (N.ltb_spec max (le_value b)).
  - intros E. apply IH in E. destruct E as (Hw & pre & -> & Lp). split; [assumption|].
    exists (b ++ pre). rewrite app_assoc. split; [reflexivity|]. rewrite app_length. lia.
  - intros E. injection E as <- <-. split; [assumption|]. exists b. split; [reflexivity | lia].
Qed.

(* no drawn value ever lies outside its range; coins are consumed; the only other outcomes are
   "bad modulo" (0 or 1) and "more coins needed" *)
Theorem random_mod_range m s c r : random_mod m s = Ret (c, r) ->
  2 <= m /\ c < m /\ exists pre, s = pre ++ r /\ (length pre >= 8)%nat.
Proof.
  unfold random_mod, grandom_ui_nomodbias. destruct (N.ltb_spec m 2); [discriminate|].
  destruct (nomodbias_loop _ _ s) as [[w r']| | | | |] eqn:E; cbn; try discriminate.
  intros E'. injection E' as <- <-. apply nomodbias_loop_ret in E. destruct E as (_ & pre).
  split; [assumption|]. split; [apply N.mod_lt; lia | assumption].
Qed.

Lemma nomodbias_loop_outcomes max : forall f s, match nomodbias_loop f max s with Ret _ | NeedCoins => True | _ => False end.
Proof.
  induction f as [|f IH]; intros s; [exact I|]. cbn [nomodbias_loop]. unfold grandom_ui, draw.
  destruct (length s <? 8)%nat; cbn; [exact I|]. destruct (max <? _); [apply IH | exact I].
Qed.

Theorem random_mod_outcomes m s :
  match random_mod m s with Ret _ | NeedCoins => 2 <= m | Throw => m < 2 | _ => False end.
Proof.
  unfold random_mod, grandom_ui_nomodbias. destruct (N.ltb_spec m 2); [assumption|].
  pose proof (nomodbias_loop_outcomes (nomodbias_max m) (S (length s)) s) as HO.
  destruct (nomodbias_loop _ _ s); cbn; tauto.
Qed.

Lemma bitlen_spec n : n < 2 ^ bitlen n.
Proof.
  unfold bitlen. destruct (N.eq_dec n 0) as [->|NZ]; [cbn; lia|].
  rewrite N.add_1_r. apply N.log2_spec. lia.
Qed.

Lemma pow256 k : 256 ^ k = 2 ^ (8 * k).
Proof. change 256 with (2 ^ 8). now rewrite N.pow_mul_r. Qed.

Lemma ceil8 x : x <= 8 * ((x + 7) / 8).
Proof. pose proof (N.div_mod (x + 7) 8 ltac:(lia)). pose proof (N.mod_lt (x + 7) 8 ltac:(lia)). lia. Qed.

(* the raw number has at least 64 bits more than the modulus: N = 256^nbytes >= 2^64 * |m| *)
Theorem randomm_space m : W * Z.abs_N m <= 256 ^ randomm_nbytes m.
Proof.
  unfold randomm_nbytes. set (a := Z.abs_N m). set (l := bitlen a).
  pose proof (bitlen_spec a) as Ha. fold l in Ha.
  rewrite pow256. apply N.le_trans with (2 ^ (l + 64)).
  - rewrite N.pow_add_r. change (2 ^ 64) with W. nia.
  - apply N.pow_le_mono_r; [lia | apply ceil8].
Qed.

Theorem grandomm_range m s v r : grandomm m s = Ret (v, r) ->
  m <> 0%Z /\ (0 <= v < Z.abs m)%Z /\ exists b, s = b ++ r /\ length b = N.to_nat (randomm_nbytes m) /\
  v = Z.of_N (be_value b mod Z.abs_N m).
Proof.
  unfold grandomm. destruct (draw _ s) as [[b r']| | | | |] eqn:D; cbn [bind fst snd]; try discriminate.
  destruct (Z.eqb_spec m 0); [discriminate|]. intros E. injection E as <- <-.
  apply draw_spec in D. destruct D as (-> & L & _).
  split; [assumption|]. split.
  - assert (NZ : Z.abs_N m <> 0) by (destruct m; [congruence | discriminate | discriminate]).
    pose proof (N.mod_lt (be_value b) (Z.abs_N m) NZ) as Hlt.
    rewrite <- N2Z.inj_abs_N. set (x := be_value b mod Z.abs_N m) in *. clearbody x. lia.
  - exists b. auto.
Qed.

Theorem grandomm_outcomes m s :
  match grandomm m s with Ret _ => m <> 0%Z | NeedCoins => True | DivZero => m = 0%Z | _ => False end.
Proof.
  unfold grandomm, draw. destruct (_ <? _)%nat; cbn; [exact I|]. destruct (Z.eqb_spec m 0); assumption.
Qed.

(* counting: among the N = 256^nbytes equally likely raw values every residue t < |m| has
   floor(N/|m|) or floor(N/|m|)+1 preimages, and floor(N/|m|) >= 2^64 *)
Theorem grandomm_count m t v : m <> 0%Z -> t < Z.abs_N m ->
  let n := 256 ^ randomm_nbytes m in let a := Z.abs_N m in
  ((v < n /\ v mod a = t) <-> exists k, k < fibre_count n a t /\ v = k * a + t) /\
  n / a <= fibre_count n a t <= n / a + 1 /\ W <= n / a.
Proof.
  intros Hm Ht n a. assert (0 < a) by (unfold a; destruct m; [congruence | reflexivity | reflexivity]). split; [|split].
  - apply fibre_count_spec; assumption.
  - apply fibre_count_bounds; assumption.
  - apply N.div_le_lower_bound; [lia|]. rewrite N.mul_comm. apply randomm_space.
Qed.

Theorem grandomb_range size s v r : grandomb size s = Ret (v, r) ->
  0 < size /\ v < 2 ^ size /\ exists b, s = b ++ r /\ length b = N.to_nat ((size + 7) / 8) /\ v = be_value b mod 2 ^ size.
Proof.
  unfold grandomb. destruct (N.eqb_spec size 0); [discriminate|].
  intros E. apply bind_ret in E as ([b r'] & D & E). injection E as <- <-. apply draw_spec in D. destruct D as (-> & L & _).
  split; [lia|]. split; [apply N.mod_lt, N.pow_nonzero; lia|]. exists b. auto.
Qed.

(* exactly uniform: 2^size divides the number of raw values, every residue has the same number of preimages *)
Theorem grandomb_count size t : 0 < size -> t < 2 ^ size ->
  let n := 256 ^ ((size + 7) / 8) in fibre_count n (2 ^ size) t = n / 2 ^ size /\ n mod 2 ^ size = 0.
Proof.
  intros Hs Ht n.
  assert (E : n mod 2 ^ size = 0).
  { unfold n. rewrite pow256. pose proof (ceil8 size).
    replace (8 * ((size + 7) / 8)) with ((8 * ((size + 7) / 8) - size) + size) by lia.
    rewrite N.pow_add_r. apply N.mod_mul. apply N.pow_nonzero. lia. }
  split; [|exact E]. unfold fibre_count. rewrite E. destruct (N.ltb_spec t 0); lia.
Qed.

Definition in_range_m (m v : Z) : Prop := (0 <= v < Z.abs m)%Z.
Definition cache_wf (c : cache) : Prop := (c_avail c <= length (c_vals c))%nat /\ Forall (in_range_m (c_mod c)) (c_vals c).

(* every cached value is an ordinary residue draw from its own block of random bytes *)
Lemma draw_many_spec m : forall k s vs s', draw_many k m s = Ret (vs, s') ->
  length vs = k /\ Forall (in_range_m m) vs /\
  exists chunks, s = concat chunks ++ s' /\ Forall (fun b => length b = N.to_nat (randomm_nbytes m)) chunks /\
                 vs = map (fun b => Z.of_N (be_value b mod Z.abs_N m)) chunks.
Proof.
  induction k as [|k IH]; intros s vs s'; cbn [draw_many].
  - intros E. injection E as <- <-. repeat split; [constructor|]. exists []. repeat split; constructor.
  - intros E. apply bind_ret in E as ([v s1] & G & E). apply bind_ret in E as ([vs1 s2] & D & E).
    injection E as <- <-. cbn [fst snd] in *. apply IH in D. destruct D as (L & F & chunks & -> & FL & ->).
    apply grandomm_range in G. destruct G as (_ & R & b & -> & Lb & ->).
    repeat split; [cbn; now rewrite L | constructor; assumption|].
    exists (b :: chunks). cbn [concat map]. rewrite app_assoc. repeat split. now constructor.
Qed.

Theorem cache_init_spec n m s c s' : cache_init n m s = Ret (c, s') ->
  (1 <= n <= Z.to_nat TMCG_MAX_SSRANDOMM_CACHE)%nat /\ c_mod c = m /\ c_avail c = n /\ length (c_vals c) = n /\ cache_wf c /\
  exists chunks, s = concat chunks ++ s' /\ Forall (fun b => length b = N.to_nat (randomm_nbytes m)) chunks /\
                 c_vals c = map (fun b => Z.of_N (be_value b mod Z.abs_N m)) chunks.
Proof.
  unfold cache_init. destruct (Nat.eqb_spec n 0); cbn [orb]; [discriminate|].
  destruct (Nat.ltb_spec (Z.to_nat TMCG_MAX_SSRANDOMM_CACHE) n); [discriminate|].
  intros E. apply bind_ret in E as ([vs s1] & D & E). injection E as <- <-. apply draw_many_spec in D. destruct D as (L & F & X).
  cbn. unfold cache_wf. cbn. repeat split; try lia; assumption.
Qed.

Theorem cache_get_spec c m s v c' s' : cache_wf c -> cache_get c m s = Ret ((v, c'), s') ->
  in_range_m m v /\ cache_wf c' /\
  ((m = c_mod c /\ (0 < c_avail c)%nat /\ nth_error (c_vals c) (c_avail c - 1) = Some v /\
    c_avail c' = (c_avail c - 1)%nat /\ c_vals c' = c_vals c /\ c_mod c' = c_mod c /\ s' = s) \/
   ((m <> c_mod c \/ c_avail c = O) /\ grandomm m s = Ret (v, s') /\ c' = c)).
Proof.
  intros (WA & WF). unfold cache_get. destruct ((m =? c_mod c)%Z && (0 <? c_avail c)%nat) eqn:C.
  - destruct (nth_error (c_vals c) (c_avail c - 1)) as [v0|] eqn:N; [|discriminate].
    intros E. injection E as <- <- <-. assert (Em : m = c_mod c) by lia. split.
    + rewrite Em. rewrite Forall_forall in WF. apply WF. eapply nth_error_In; eassumption.
    + split; [unfold cache_wf; cbn; split; [lia | assumption]|]. left. cbn. repeat split; auto. lia.
  - destruct (grandomm m s) as [[v0 s0]| | | | |] eqn:G; cbn [bind fst snd]; try discriminate.
    intros E. injection E as <- <- <-. pose proof (grandomm_range _ _ _ _ G) as (_ & R & _).
    split; [exact R|]. split; [split; assumption|]. right. repeat split; auto. lia.
Qed.

Lemma cache_queries_range : forall ms c s vs s', cache_wf c -> cache_queries c ms s = Ret (vs, s') -> Forall2 in_range_m ms vs.
Proof.
  induction ms as [|m ms IH]; intros c s vs s' W; cbn [cache_queries].
  - intros E. injection E as <- <-. constructor.
  - intros E. apply bind_ret in E as ([[v c1] s1] & G & E). apply bind_ret in E as ([vs1 s2] & Q & E).
    injection E as <- <-. destruct (cache_get_spec _ _ _ _ _ _ W G) as (R & W1 & _).
    constructor; [exact R | eapply IH; eassumption].
Qed.

(* whatever cache was initialised (any modulus q, any size) and whatever moduli are queried afterwards:
   every answer lies in the range of the modulus it was asked for *)
Theorem cache_run_range n q ms s vs s' : cache_run n q ms s = Ret (vs, s') -> Forall2 in_range_m ms vs.
Proof.
  unfold cache_run. intros E. apply bind_ret in E as ([c s1] & I & E). revert E.
  apply cache_init_spec in I. destruct I as (_ & _ & _ & _ & W & _). now apply cache_queries_range.
Qed.
