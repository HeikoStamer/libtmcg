(* RbcStep4: local facts for the delivery clause (C14 validity / totality at quiescence): what setting each first-time filter
   entails (echo after r-send, answer after r-request, delivery attempt after r-answer), requests, well-formed output. *)
From Coq Require Import ZArith List Bool Lia.
From LT Require Import RbcModel RbcLemmas RbcStep.
Import ListNotations.
Local Open Scope Z_scope.

Lemma in_req_list : forall t i (x : msg), 0 <= i <= 2 * t ->
  In (i, x) (map (fun i => (i, x)) (map Z.of_nat (seq 0 (Z.to_nat (2 * t + 1))))).
Proof.
  intros t i x R. apply in_map_iff. exists i. split; [reflexivity|]. apply (range_in (2 * t + 1)). lia.
Qed.

Section Step4.
Variables (n t : Z) (H : Z -> Z) (toolong : tagT -> Z -> bool).
Notation handle := (handle n t H toolong).

(* a delivery attempt: delivered, or put into the deliver buffer *)
Definition tried (st' : pst) (r : dres) (tg : tagT) : Prop :=
  (exists who v, r = RDeliver who tg v) \/ In tg (dbuf st').

Variable skip : Z.
Notation deliver := (deliver n t skip H toolong).

Set Implicit Arguments.
Record pstep4 (st st' : pst) (out : list (Z * msg)) (r : dres) (offer : option (Z * msg)) : Prop := {
  (* everything sent carries the checked sender and sequence number of the message *)
  p4_wf : forall dst x, In (dst, x) out -> m_act x <> 6 -> m_act x <> 1 -> 0 <= m_j x < n /\ 1 <= m_s x;
  (* the first r-send from k for a tag: faked sender, conflicting payload, or echo to everybody *)
  p4_fsend : forall k tg, filt st FSend k tg = false -> filt st' FSend k tg = true ->
     exists m, offer = Some (k, m) /\ tg = mtag m /\ m_act m = 1 /\
       (m_j m <> k \/ (exists x, mbar st tg = Some x /\ x <> m_pay m) \/
        ((forall i, In i (range n) -> In (i, Msg (m_id m) (m_j m) (m_s m) 2 (H (m_pay m))) out) /\ mbar st' tg = Some (m_pay m)));
  (* r-echo goes to everybody and the echoing party holds the payload *)
  p4_echo_all : forall dst x, In (dst, x) out -> m_act x = 2 ->
     (forall i, In i (range n) -> In (i, x) out) /\ exists v, mbar st' (mtag x) = Some v /\ m_pay x = H v;
  (* the first r-request from k: answered iff a payload is stored *)
  p4_frequest : forall k tg, filt st FRequest k tg = false -> filt st' FRequest k tg = true ->
     exists m, offer = Some (k, m) /\ tg = mtag m /\ m_act m = 4 /\
       (mbar st tg = None \/ exists v, mbar st tg = Some v /\ In (k, Msg (m_id m) (m_j m) (m_s m) 5 v) out);
  (* r-answer is only sent to a requester, with the stored payload *)
  p4_answer : forall dst x, In (dst, x) out -> m_act x = 5 ->
     exists m, offer = Some (dst, m) /\ m_act m = 4 /\ mtag x = mtag m /\ mbar st (mtag x) = Some (m_pay x);
  (* the first r-answer from k: not ready, bad digest, or a delivery attempt *)
  p4_fanswer : forall k tg, filt st FAnswer k tg = false -> filt st' FAnswer k tg = true ->
     exists m, offer = Some (k, m) /\ tg = mtag m /\ m_act m = 5 /\
       (dbar st tg = None \/ (exists db, dbar st tg = Some db /\ H (m_pay m) <> db) \/ tried st' r tg);
  (* r-request is sent when the digest has just been fixed by the (2t+1)-th ready *)
  p4_request : forall dst x, In (dst, x) out -> m_act x = 4 ->
     dbar st' (mtag x) = Some (m_pay x) /\ (dbar st (mtag x) = None \/ dbar st (mtag x) = Some (m_pay x)) /\
     rd st (mtag x) (m_pay x) + 1 = 2 * t + 1;
  (* when the digest gets fixed, the payload is requested or a delivery is attempted *)
  p4_dbar_new : forall tg, dbar st tg = None -> dbar st' tg <> None ->
     (exists x, m_act x = 4 /\ mtag x = tg /\ forall i, 0 <= i <= 2 * t -> In (i, x) out) \/ tried st' r tg \/
     (r = RThrow /\ dbar st' tg = Some 0);
  (* the first r-echo of a peer for a tag is counted (unless its digest is over-long) *)
  p4_fecho : forall k tg, filt st FEcho k tg = false -> filt st' FEcho k tg = true ->
     exists m, offer = Some (k, m) /\ tg = mtag m /\ m_act m = 2 /\
       (toolong tg (m_pay m) = true \/ ed st' tg (m_pay m) = ed st tg (m_pay m) + 1);
  p4_dbuf : forall tg, In tg (dbuf st) -> In tg (dbuf st') \/ (exists who v, r = RDeliver who tg v) \/ obsolete st tg = true;
  (* an l-deliver answer on a FIFO channel is only given for a slot below the own delivery counter *)
  p4_ldeliver : forall dst x, In (dst, x) out -> m_act x = 7 -> skip = 0 -> fifo st = true -> m_s x < dls st (m_j x) }.
Unset Implicit Arguments.

Lemma pstep4_fbuf : forall st st' out r off x, pstep4 st st' out r off -> pstep4 st (set_fbuf st' x) out r off.
Proof. intros st st' out r off x []. constructor; assumption. Qed.

Lemma pstep4_same : forall st st' out off,
  filt st' = filt st -> dbar st' = dbar st -> dbuf st' = dbuf st ->
  (forall dst x, In (dst, x) out -> m_act x = 1 \/ m_act x = 6) -> pstep4 st st' out RNone off.
Proof.
  intros st st' out off E1 E2 E3 A. constructor; rewrite ?E1, ?E2, ?E3; try (intros; congruence); auto.
  - intros dst x I N6 N1. apply A in I. lia.
  - intros dst x I A2. apply A in I. lia.
  - intros dst x I A5. apply A in I. lia.
  - intros dst x I A4. apply A in I. lia.
  - intros dst x I A7. apply A in I. lia.
Qed.

Lemma handle_dbuf_mono : forall me st l m st' out r, handle me st l m = (st', out, r) ->
  forall tg, In tg (dbuf st) -> In tg (dbuf st').
Proof.
  intros me st l m st' out r HH tg I. apply handle_inv in HH. destruct HH; proj; auto; apply in_or_app; auto.
Qed.

Lemma handle_pstep4 : forall me st l m st' out r, handle me st l m = (st', out, r) -> pstep4 st st' out r (Some (l, m)).
Proof.
  intros me st l m st' out r HH. pose proof (handle_dbuf_mono _ _ _ _ _ _ _ HH) as DM.
  apply handle_inv in HH. constructor; unfold tried; auto.
  - intros dst x I _ _. destruct HH; in_out I; subst; cbn; auto.
  - intros k' tg F0 F1. destruct HH; proj; try congruence;
    apply (fset_new _ _ _ _ _ _ _ F0) in F1; destruct F1 as (K & -> & ->); try discriminate K; exists m.
    + (* HFirst *) subst k. destruct R as [A [R|R]]; repeat split; auto.
    + (* HSend *) repeat split; auto. right; right. split; [|apply Mb]. intros i Ii. apply in_map_iff. exists i. auto.
  - intros dst x I A2. destruct HH; in_out I; subst; try discriminate A2.
    split; [intros i Ii; apply in_map_iff; exists i; auto|]. exists (m_pay m). split; [apply Mb|reflexivity].
  - intros k' tg F0 F1. destruct HH; proj; try congruence;
    apply (fset_new _ _ _ _ _ _ _ F0) in F1; destruct F1 as (K & -> & ->); try discriminate K; exists m.
    + (* HFirst *) subst k. destruct R as [A R]. repeat split; auto.
    + (* HRequestAnswered *) repeat split; auto. right. exists v. split; [exact Mb|left; reflexivity].
  - intros dst x I A5. destruct HH; in_out I; subst; try discriminate A5. exists m. auto.
  - intros k' tg F0 F1. destruct HH; proj; try congruence;
    apply (fset_new _ _ _ _ _ _ _ F0) in F1; destruct F1 as (K & -> & ->); try discriminate K; exists m.
    + (* HFirst *) subst k. destruct R as [A [R|R]]; repeat split; auto.
    + (* HAnswerDeliver *) repeat split; auto. right; right; left. eauto.
    + (* HAnswerBuffer *) repeat split; auto. right; right; right. apply in_elt.
  - intros dst x I A4. destruct HH; in_out I; subst; try discriminate A4.
    change (mtag (Msg (m_id m) (m_j m) (m_s m) 4 (m_pay m))) with (mtag m). cbn [m_pay]. proj.
    split; [apply Db|]. split; [|lia].
    destruct Db as [E [->|[N _]]]; auto.
  - intros tg D0 D1. destruct HH; proj; try congruence;
    destruct (fixes_cases _ _ _ _ _ Db tg) as [E|(-> & _ & E)]; try congruence.
    + (* HReadyRequest *) left. exists (Msg (m_id m) (m_j m) (m_s m) 4 (m_pay m)). repeat split. intros i Ri. apply in_req_list. exact Ri.
    + (* HReadyThrow *) right; right. rewrite Mb in Hm. rewrite E, <- Hm. auto.
    + (* HReadyDeliver *) right; left; left. eauto.
    + (* HReadyBuffer *) right; left; right. apply in_elt.
  - intros k' tg F0 F1. destruct HH; proj; try congruence;
    apply (fset_new _ _ _ _ _ _ _ F0) in F1; destruct F1 as (K & -> & ->); try discriminate K; exists m.
    all: try (rewrite upd2_same; auto; fail).
    subst k. destruct R as [A L]. repeat split; auto.
  - intros dst x I A7 _ Ff. destruct HH; in_out I; subst; try discriminate A7. exact (Q Ff).
Qed.

Lemma pstep4_buffer : forall me st st1 sent1 st2 out r off, buffer_phase n skip me st = (st1, sent1) ->
  (forall tg, In tg (dbuf st1) -> In tg (dbuf st2)) ->
  pstep4 st1 st2 out r off -> pstep4 st st2 (sent1 ++ out) r off.
Proof.
  intros me st st1 sent1 st2 out r off BP DM [X0 X1 X2 X3 X4 X5 X6 X7 X8 _ X10].
  apply buffer_phase_spec in BP. destruct BP as (Fr & DL0 & A6 & BD).
  pose proof (fun k0 k tg => frame_filt_false _ _ k0 k tg Fr) as Fk. destruct Fr as ((_ & _ & Ff & _) & Mb & Db & Ed & Rd & _).
  assert (OUT : forall dst x, In (dst, x) (sent1 ++ out) -> m_act x <> 6 -> In (dst, x) out).
  { intros dst x I N6. apply (act6_or_later _ _ _ _ A6) in I. destruct I as [E|I]; [contradiction|exact I]. }
  rewrite Ed, Rd, Db, Mb in *. constructor; rewrite ?Ed, ?Rd, ?Db, ?Mb.
  - intros dst x I N6 N1. apply OUT in I; eauto.
  - intros k tg F0 F1. apply Fk in F0; [|discriminate]. destruct (X1 k tg F0 F1) as (m & -> & -> & A1 & C).
    exists m. repeat split; auto. destruct C as [C|[C|[C1 C2]]]; auto. right. right. split; auto.
    intros i Ii. apply in_or_app. auto.
  - intros dst x I A2. apply OUT in I; [|lia]. destruct (X2 _ _ I A2) as (C1 & C2). split; auto.
    intros i Ii. apply in_or_app. auto.
  - intros k tg F0 F1. apply Fk in F0; [|discriminate]. destruct (X3 k tg F0 F1) as (m & -> & -> & A4 & C).
    exists m. repeat split; auto. destruct C as [C|(v & C1 & C2)]; auto. right. exists v. split; auto. apply in_or_app. auto.
  - intros dst x I A5. apply OUT in I; [|lia]. eauto.
  - intros k tg F0 F1. apply Fk in F0; [|discriminate]. eauto.
  - intros dst x I A4. apply OUT in I; [|lia]. eauto.
  - intros tg D0 D1. destruct (X7 tg D0 D1) as [(x & A4 & T & C)|C]; auto.
    left. exists x. repeat split; auto. intros i Ri. apply in_or_app. auto.
  - intros k tg F0 F1. apply Fk in F0; [|discriminate]. eauto.
  - intros tg I. destruct (obsolete st tg) eqn:O; auto. left. apply DM. rewrite BD. apply filter_In. rewrite O. auto.
  - intros dst x I A7 Z0 F1. apply OUT in I; [|lia]. rewrite <- (DL0 Z0). apply (X10 _ _ I A7 Z0). congruence.
Qed.

Lemma deliver_pstep4 : forall me st offer,
  let o := deliver me st offer in pstep4 st (o_st o) (o_sent o) (o_res o) offer.
Proof.
  intros me st offer. destruct (deliver_inv n t skip H toolong me st offer); cbv zeta; cbn [o_st o_sent o_res].
  - constructor; try (intros; congruence); try (intros ? ? []). auto.
  - constructor; proj; try (intros; congruence); try (intros ? ? []).
    intros tg I. rewrite B in I. apply in_elt_inv in I. destruct I as [->|I]; [right; left; eauto|left; exact I].
  - rewrite <- (app_nil_r sent1). eapply pstep4_buffer; eauto. apply pstep4_same; auto. intros ? ? [].
  - eapply pstep4_buffer; eauto; [eapply handle_dbuf_mono|eapply handle_pstep4]; exact HH.
Qed.

End Step4.
