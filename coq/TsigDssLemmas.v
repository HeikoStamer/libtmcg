(* TsigDssLemmas: the threshold DSS signing run of TsigDssModel (sharing of the products, interpolation, r and s) yields a valid
   DSA signature, the same at all honest parties (C16). *)
From Coq Require Import ZArith Znumtheory List Bool Lia.
From LT Require Import ListFacts gen_Consts Zbase VssModel VssLemmas VssLagrange CoinFlipArith CoinFlipModel CoinFlipLemmas TsigModel TsigLemmas TsigDssModel.
Import ListNotations.
Local Open Scope Z_scope.

Fixpoint pmul (f g : list Z) : list Z :=
  match f with
  | [] => []
  | a :: r => pladd (pscale a g) (0 :: pmul r g)
  end.

Lemma peval_pmul f g x : peval (pmul f g) x = peval f x * peval g x.
Proof.
  induction f as [|a r IH]; cbn [pmul peval]; [lia|].
  rewrite peval_pladd, peval_pscale. cbn [peval]. rewrite IH. ring.
Qed.

Lemma length_pmul f g : (length (pmul f g) <= length f + length g)%nat.
Proof.
  induction f as [|a r IH]; cbn [pmul length]; [lia|].
  rewrite length_pladd, length_pscale. cbn [length]. lia.
Qed.

Lemma length_pmul_tight f g : f <> [] -> g <> [] -> (S (length (pmul f g)) <= length f + length g)%nat.
Proof.
  intros Hf Hg. induction f as [|a r IH]; [congruence|].
  cbn [pmul length]. rewrite length_pladd, length_pscale. cbn [length].
  destruct r as [|b r'].
  - cbn [pmul length]. destruct g; [congruence|cbn [length]; lia].
  - assert (b :: r' <> []) by congruence. specialize (IH H). cbn [length] in *. lia.
Qed.

Fixpoint lincomb (lams : list Z) (fs : list (list Z)) : list Z :=
  match lams, fs with
  | l :: lr, f :: fr => pladd (pscale l f) (lincomb lr fr)
  | _, _ => []
  end.

Lemma length_lincomb lams fs d : Forall (fun f => (length f <= d)%nat) fs -> (length (lincomb lams fs) <= d)%nat.
Proof.
  revert fs. induction lams as [|l lr IH]; intros fs H; [cbn; lia|].
  destruct fs as [|f fr]; [cbn; lia|]. inversion H; subst. cbn [lincomb].
  rewrite length_pladd, length_pscale. specialize (IH fr H3). lia.
Qed.

Fixpoint lsum (lams ys : list Z) : Z :=
  match lams, ys with l :: lr, y :: yr => l * y + lsum lr yr | _, _ => 0 end.

Lemma peval_lincomb lams fs x : peval (lincomb lams fs) x = lsum lams (map (fun f => peval f x) fs).
Proof.
  revert fs. induction lams as [|l lr IH]; intros fs; [reflexivity|].
  destruct fs as [|f fr]; [reflexivity|]. cbn [lincomb map lsum]. rewrite peval_pladd, peval_pscale, IH. reflexivity.
Qed.

(* the value a party broadcasts is the value of the linear combination of the sharing polynomials at its abscissa *)
Lemma party_share_lincomb q lams fs x : dss_party_share q lams fs x = poly_eval q (lincomb lams fs) x.
Proof.
  unfold dss_party_share, dss_comb. rewrite poly_eval_peval.
  etransitivity; [exact (fold_addm (fun ls => (fst ls * snd ls) mod q) q _ 0)|]. rewrite Z.add_0_l.
  revert fs. induction lams as [|l lr IH]; intros [|f fr]; cbn [map combine fold_right lincomb peval fst snd]; try reflexivity.
  rewrite peval_pladd, peval_pscale, poly_eval_peval, Zmult_mod_idemp_r, Zplus_mod_idemp_l, <- Zplus_mod_idemp_r, IH.
  apply Zplus_mod_idemp_r.
Qed.

(* lagrange0 as a linear form with the coefficients dss_lambda *)
Lemma lag_go_lin q xs : 0 < q -> forall pts acc,
  lag_go q xs pts (acc mod q) =
  match dss_lambdas_of q xs (map fst pts) with
  | Some lams => Some ((acc + lsum lams (map snd pts)) mod q)
  | None => None
  end.
Proof.
  intros Hq. induction pts as [|[xj yj] r IH]; intros acc; cbn [lag_go map dss_lambdas_of fst snd].
  - cbn [lsum]. now rewrite Z.add_0_r.
  - unfold dss_lambda. destruct (invm (lag_den xs xj) q) as [iv|]; [|reflexivity].
    rewrite Zplus_mod_idemp_l, Zplus_mod_idemp_r. rewrite IH.
    destruct (dss_lambdas_of q xs (map fst r)) as [ls|]; [|reflexivity].
    cbn [lsum]. f_equal. apply (f_equal (fun z => z mod q)). ring.
Qed.

Lemma lagrange0_lin q pts : 0 < q ->
  lagrange0 q pts = match dss_lambdas q (map fst pts) with
                    | Some lams => Some (lsum lams (map snd pts) mod q)
                    | None => None end.
Proof.
  intros Hq. unfold lagrange0, dss_lambdas. rewrite <- (Zmod_0_l q) at 1. rewrite lag_go_lin by lia.
  destruct (dss_lambdas_of q (map fst pts) (map fst pts)); reflexivity.
Qed.

Lemma dss_lambdas_of_complete q S js : prime q -> Forall (fun x => 0 <= x < q) S -> incl js S ->
  exists lams, dss_lambdas_of q S js = Some lams.
Proof.
  intros Hq Hr. induction js as [|xj r IH]; intros Hi; [now exists []|].
  destruct IH as (ls & E); [intros z Hz; apply Hi; now right|].
  destruct (lag_den_invertible q S xj Hq Hr (Hi xj (or_introl eq_refl))) as [iv I].
  cbn [dss_lambdas_of]. unfold dss_lambda. rewrite I, E. eauto.
Qed.

Definition pts_ok (q : Z) (S : list Z) : Prop := NoDup S /\ Forall (fun x => 0 <= x < q) S.

Lemma map_fst_pts {A} (F : Z -> A) R : map fst (map (fun xi => (xi, F xi)) R) = R.
Proof. rewrite map_map. apply map_id. Qed.

(* what a party obtains from the broadcast shares of ANY set R of at least d parties (d = bound on the number of
   coefficients of the sharing polynomials, i.e. t+1): the linear combination of the shared values *)
Lemma dss_interp_value q S fs R d mu : prime q -> pts_ok q R ->
  Forall (fun f => (length f <= d)%nat) fs -> (d <= length R)%nat ->
  dss_interp q S fs R = Some mu ->
  exists lams, dss_lambdas q S = Some lams /\ mu = lsum lams (map (fun f => peval f 0) fs) mod q.
Proof.
  intros Hq [Rnd Rr] Hfs Hd E. assert (Hq0 : 0 < q) by (destruct Hq; lia).
  unfold dss_interp in E. destruct (dss_lambdas q S) as [lams|]; [|discriminate].
  exists lams. split; [reflexivity|].
  rewrite (lagrange0_sound q (lincomb lams fs) (map (fun xi => (xi, dss_party_share q lams fs xi)) R) mu Hq); try exact E.
  - rewrite poly_eval_peval. now rewrite peval_lincomb.
  - rewrite map_length. pose proof (length_lincomb lams fs d Hfs). lia.
  - now rewrite map_fst_pts.
  - intros x y Hin. apply in_map_iff in Hin. destruct Hin as (xi & [= <- <-] & Hxi).
    rewrite Forall_forall in Rr. split; [now apply Rr|].
    rewrite party_share_lincomb. apply Z.mod_small, poly_eval_range, Hq0.
Qed.

Lemma F2_length {A B} (P : A -> B -> Prop) l m : Forall2 P l m -> length l = length m.
Proof. induction 1; cbn; congruence. Qed.

(* the coefficients lambda_j turn values of a polynomial with at most |S| coefficients at the signers' abscissae into its value at 0 *)
Lemma lincomb_value q S lams vs P : prime q -> pts_ok q S -> dss_lambdas q S = Some lams ->
  Forall2 (fun x v => v mod q = poly_eval q P x) S vs -> (length P <= length S)%nat ->
  lsum lams vs mod q = poly_eval q P 0.
Proof.
  intros Hq [Snd Sr] EL HV HP. assert (Hq0 : 0 < q) by (destruct Hq; lia).
  assert (L : length S = length vs) by (eapply F2_length; exact HV).
  assert (E : lagrange0 q (combine S vs) = Some (lsum lams vs mod q)).
  { rewrite lagrange0_lin by lia. rewrite map_fst_combine, map_snd_combine by assumption. now rewrite EL. }
  apply (lagrange0_sound q P (combine S vs) _ Hq); try exact E.
  - rewrite combine_length. lia.
  - now rewrite map_fst_combine.
  - intros x y Hin. rewrite Forall_forall in Sr. split; [apply Sr; eapply in_combine_l; exact Hin|].
    clear - HV Hin. induction HV as [|x0 v0 S' vs' H0 _ IH]; [contradiction|].
    destruct Hin as [[= <- <-]|Hin]; [exact H0|now apply IH].
Qed.

(* the interpolated value is the Lagrange value of the points (x_j, v_j) over the signers: the form compared with the code
   in the correspondence records (every signer's own v_j, the logged mu / s) *)
Lemma dss_interp_is_lincomb q S fs R d mu : prime q -> pts_ok q R ->
  Forall (fun f => (length f <= d)%nat) fs -> (d <= length R)%nat -> length fs = length S ->
  dss_interp q S fs R = Some mu -> dss_lincomb q S (map (fun f => peval f 0) fs) = Some mu.
Proof.
  intros Hq HR Hfs Hd L E. assert (Hq0 : 0 < q) by (destruct Hq; lia).
  destruct (dss_interp_value q S fs R d mu Hq HR Hfs Hd E) as (lams & EL & ->).
  unfold dss_lincomb. rewrite lagrange0_lin by lia.
  rewrite map_fst_combine, map_snd_combine by (rewrite map_length; lia). now rewrite EL.
Qed.

Section Run.
  Variable G : group.
  Hypothesis SG : sgroup G.
  Hypothesis Pq : prime (gq G).
  Let p := gp G.
  Let q := gq G.
  Let g := gg G.

  Variables Fk Fa Fx : list Z.                 (* the joint polynomials of k, a and the key x *)
  Hypothesis Nk : Fk <> []. Hypothesis Na : Fa <> []. Hypothesis Nx : Fx <> [].
  Variable S : list Z.                         (* the signers' abscissae *)
  Hypothesis HS : pts_ok q S.
  Hypothesis HdegA : (length Fk + length Fa <= Datatypes.S (length S))%nat.    (* |S| >= 2t+1 *)
  Hypothesis HdegX : (length Fk + length Fx <= Datatypes.S (length S))%nat.
  Variable d : nat.                            (* t+1 *)
  Variable m : Z.

  Let kk := peval Fk 0.
  Let aa := peval Fa 0.
  Let xx := peval Fx 0.

  (* every signer shared its product correctly (or it was exposed and the constant polynomial is used) *)
  Definition shared_mu (fs : list (list Z)) : Prop :=
    Forall (fun f => (length f <= d)%nat) fs /\
    Forall2 (fun x f => poly_eval q f 0 = dss_v q (poly_eval q Fk x) (poly_eval q Fa x)) S fs.
  (* r is the first component the run returns; it depends on the sharings of the v_j only (dss_sign_value), so a
     premise about the sharings of the v'_j may mention it *)
  Definition shared_s (r : Z) (fs : list (list Z)) : Prop :=
    Forall (fun f => (length f <= d)%nat) fs /\
    Forall2 (fun x f => poly_eval q f 0 = dss_v q (poly_eval q Fk x) (dss_aprime q (poly_eval q Fx x) r m)) S fs.

  Lemma run_q_pos : 0 < q. Proof. destruct Pq. unfold q. lia. Qed.

  Lemma product_value fs R mu (Q : list Z) (val : Z -> Z) :
    (Q <> []) -> (length Fk + length Q <= Datatypes.S (length S))%nat ->
    Forall (fun f => (length f <= d)%nat) fs ->
    Forall2 (fun x f => poly_eval q f 0 = dss_v q (poly_eval q Fk x) (val x)) S fs ->
    (forall x, val x mod q = peval Q x mod q) ->
    pts_ok q R -> (d <= length R)%nat ->
    dss_interp q S fs R = Some mu -> mu = (kk * peval Q 0) mod q.
  Proof.
    intros NQ HL Hlen HV Hval HR Hd E. pose proof run_q_pos as Hq0.
    destruct (dss_interp_value q S fs R d mu Pq HR Hlen Hd E) as (lams & EL & ->).
    rewrite (lincomb_value q S lams _ (pmul Fk Q) Pq HS EL).
    - rewrite poly_eval_peval. now rewrite peval_pmul.
    - clear - HV Hval Hq0. induction HV as [|x f S' fs' H0 _ IH]; cbn [map]; constructor; [|exact IH].
      rewrite <- (poly_eval_peval q f 0). rewrite H0. unfold dss_v.
      rewrite !poly_eval_peval. rewrite peval_pmul.
      rewrite Zmult_mod_idemp_l. rewrite (Zmult_mod (peval Fk x) (val x)), Hval, <- Zmult_mod. reflexivity.
    - pose proof (length_pmul_tight Fk Q Nk NQ). lia.
  Qed.

  Lemma mu_value fs R mu : shared_mu fs -> pts_ok q R -> (d <= length R)%nat ->
    dss_interp q S fs R = Some mu -> mu = (kk * aa) mod q.
  Proof.
    intros [Hlen HV] HR Hd E. pose proof run_q_pos.
    apply (product_value fs R mu Fa (fun x => poly_eval q Fa x) Na HdegA Hlen HV); try assumption.
    intros x. rewrite poly_eval_peval. apply Z.mod_mod. lia.
  Qed.

  Lemma s_value r fs R s : shared_s r fs -> pts_ok q R -> (d <= length R)%nat ->
    dss_interp q S fs R = Some s -> s = (kk * (m + r * xx)) mod q.
  Proof.
    intros [Hlen HV] HR Hd E. pose proof run_q_pos.
    set (Q := pladd [m] (pscale r Fx)).
    assert (EQ : forall x, peval Q x = m + r * peval Fx x).
    { intros x. unfold Q. rewrite peval_pladd, peval_pscale. cbn [peval]. ring. }
    unfold xx. rewrite <- (EQ 0).
    apply (product_value fs R s Q (fun x => dss_aprime q (poly_eval q Fx x) r m)); try assumption.
    - unfold Q. destruct Fx; [congruence|]. cbn. congruence.
    - unfold Q. rewrite length_pladd, length_pscale. cbn [length]. destruct Fx; [congruence|]. cbn [length] in *. lia.
    - intros x. rewrite EQ. unfold dss_aprime. rewrite Z.mod_mod by lia. rewrite poly_eval_peval.
      rewrite Zmult_mod_idemp_l. rewrite Zplus_mod_idemp_l. apply (f_equal (fun z => z mod q)). ring.
  Qed.

  (* what a run with correct shares returns: r from the inverse of mu = k a, and s = k (m + r x) *)
  Lemma dss_sign_value fs fs' R1 R2 r s :
    shared_mu fs -> pts_ok q R1 -> (d <= length R1)%nat -> pts_ok q R2 -> (d <= length R2)%nat ->
    dss_sign G Fa S fs fs' R1 R2 = Some (r, s) -> shared_s r fs' ->
    exists mi, invm ((kk * aa) mod q) q = Some mi /\ r = powm (powm g (poly_eval q Fa 0) p) mi p mod q /\
               s = (kk * (m + r * xx)) mod q.
  Proof.
    intros Hmu HR1 Hd1 HR2 Hd2 E Hs. unfold dss_sign in E. fold p q g in E.
    destruct (dss_interp q S fs R1) as [mu|] eqn:E1; [|discriminate].
    destruct (invm mu q) as [mi|] eqn:EI; [|discriminate].
    destruct (dss_interp q S fs' R2) as [s'|] eqn:E2; [|discriminate].
    injection E as Er <-. rewrite (mu_value fs R1 mu Hmu HR1 Hd1 E1) in EI.
    exists mi. repeat split; [assumption|now symmetry|]. now apply (s_value r fs' R2).
  Qed.

  (* the (r, s) a party computes from ANY >= 2t+1 correct signers and ANY >= t+1 correct broadcast shares
     is a valid DSA signature on m under y = g^x *)
  Theorem tdss_valid fs fs' R1 R2 r s :
    shared_mu fs -> pts_ok q R1 -> (d <= length R1)%nat ->
    pts_ok q R2 -> (d <= length R2)%nat ->
    dss_sign G Fa S fs fs' R1 R2 = Some (r, s) -> shared_s r fs' ->
    0 < r -> 0 < s ->
    dsa_textbook G (powm g (poly_eval q Fx 0) p) m r s = true.
  Proof.
    intros Hmu HR1 Hd1 HR2 Hd2 E Hs Hr0 Hs0. pose proof run_q_pos as Hq0.
    assert (Hq1 : 1 < q) by (destruct Pq; unfold q; lia).
    destruct (dss_sign_value fs fs' R1 R2 r s Hmu HR1 Hd1 HR2 Hd2 E Hs) as (mi & EI & Er & Es).
    destruct SG as (Hp & _ & _ & Hg). fold p q g in Hp, Hg.
    destruct (invm_inverse _ _ _ Hq1 EI) as [Rmi Emi]. rewrite Zmult_mod_idemp_l in Emi.
    (* k^-1 = a / mu *)
    set (kinv := (aa * mi) mod q).
    assert (Hk : (kk * kinv) mod q = 1).
    { unfold kinv. rewrite Zmult_mod_idemp_r, Z.mul_assoc. exact Emi. }
    pose proof (dsa_algebra G SG xx kk kinv m Pq Hk (proj1 (Z.mod_pos_bound _ q Hq0))) as T. cbv zeta in T.
    replace (dss_r G kinv) with r in T.
    2: { rewrite Er. unfold dss_r, kinv. fold p q g. pose proof (poly_eval_range q Fa 0 Hq0). f_equal.
         rewrite <- powm_mul, <- (sub_pow_mod p q Hp Hq1 g (_ * mi)), poly_eval_peval, Zmult_mod_idemp_l by (assumption || nia).
         reflexivity. }
    replace (dss_s (gq G) kk m xx r) with s in T.
    2: { rewrite Es. unfold dss_s. fold q. rewrite Zmult_mod_idemp_r. do 3 f_equal. ring. }
    rewrite poly_eval_peval. now apply T.
  Qed.

  (* all honest parties obtain the same signature: the output depends on the broadcast shares only through values that
     are the same for every admissible choice of the parties whose shares are interpolated *)
  Theorem all_honest_same_signature fs fs' R1 R2 R1' R2' r s r' s' :
    shared_mu fs -> pts_ok q R1 -> (d <= length R1)%nat -> pts_ok q R2 -> (d <= length R2)%nat ->
    pts_ok q R1' -> (d <= length R1')%nat -> pts_ok q R2' -> (d <= length R2')%nat ->
    dss_sign G Fa S fs fs' R1 R2 = Some (r, s) -> dss_sign G Fa S fs fs' R1' R2' = Some (r', s') ->
    shared_s r fs' -> r = r' /\ s = s'.
  Proof.
    intros Hmu H1 D1 H2 D2 H1' D1' H2' D2' E E' Hs.
    destruct (dss_sign_value _ _ _ _ _ _ Hmu H1 D1 H2 D2 E Hs) as (mi & EI & Er & Es).
    (* r' is computed from the same mu, so shared_s r fs' speaks about r' as well *)
    assert (Er' : r' = r).
    { unfold dss_sign in E'. fold p q g in E'. destruct (dss_interp q S fs R1') as [mu|] eqn:E1; [|discriminate].
      rewrite (mu_value fs R1' mu Hmu H1' D1' E1), EI in E'. destruct (dss_interp q S fs' R2'); [|discriminate].
      injection E' as <- _. now symmetry. }
    subst r'. destruct (dss_sign_value _ _ _ _ _ _ Hmu H1' D1' H2' D2' E' Hs) as (_ & _ & _ & Es'). now rewrite Es, Es'.
  Qed.

  (* a run with correct shares does produce a result (no inverse is missing) unless mu = k a = 0 *)
  Theorem tdss_completes fs fs' R1 R2 : shared_mu fs -> pts_ok q R1 -> (d <= length R1)%nat -> pts_ok q R2 ->
    length fs = length S -> (kk * aa) mod q <> 0 ->
    exists r s, dss_sign G Fa S fs fs' R1 R2 = Some (r, s).
  Proof.
    intros Hmu [N1 B1] D1 [N2 B2] L NZ. pose proof run_q_pos as Hq0. assert (Hq1 : 1 < q) by (destruct Pq; unfold q; lia).
    destruct HS as [SN SB].
    destruct (dss_lambdas_of_complete q S S Pq SB (incl_refl S)) as (lams & EL). fold (dss_lambdas q S) in EL.
    assert (I : forall gs R, Forall (fun x => 0 <= x < q) R -> exists v, dss_interp q S gs R = Some v).
    { intros gs R B. unfold dss_interp. rewrite EL. apply lagrange0_complete; [assumption|]. now rewrite map_fst_pts. }
    destruct (I fs R1 B1) as [mu E1]. pose proof (mu_value fs R1 mu Hmu (conj N1 B1) D1 E1) as V.
    destruct (I fs' R2 B2) as [s E2].
    destruct (invm_prime mu q Pq) as [mi EI]; [now rewrite V, Zmod_mod|].
    unfold dss_sign. fold p q g. rewrite E1, EI, E2. eauto.
  Qed.
End Run.
