(* C19 -- OpenPGP encodings conform to the standard and round-trip.
   The property theorems, each followed by Print Assumptions, then examples.
   The model (PgpCodecModel.v) is the reference written from RFC 4880; harness/c19.cc compares the real
   CallasDonnerhackeFinneyShawThayerRFC4880 functions with it octet for octet. *)
From Coq Require Import ZArith NArith List Lia.
From LT Require Import ListFacts gen_Consts gen_Tables PgpCodecModel PgpCodecLemmas PgpArmorLemmas PgpSigModel PgpPacketModel PgpPacketLemmas.
Import ListNotations.
Local Open Scope N_scope.

(* the alphabet / reverse table compiled into the library are the ones of RFC 4880 6.3 *)
Theorem C19_radix64_alphabet : map r64_char (map N.of_nat (seq 0 64)) = src_tRadix64.
Proof. exact r64_alphabet_is_source. Qed.
Print Assumptions C19_radix64_alphabet.

Theorem C19_radix64_reverse_table :
  map (fun c => Z.of_N (r64_lookup c)) (map N.of_nat (seq 0 256)) = src_fRadix64.
Proof. exact r64_reverse_is_source. Qed.
Print Assumptions C19_radix64_reverse_table.

Theorem C19_radix64_roundtrip : forall lb l, octets l -> radix64_decode (radix64_encode lb l) = l.
Proof. exact radix64_roundtrip. Qed.
Print Assumptions C19_radix64_roundtrip.

Theorem C19_radix64_line_length : (radix64_mc mod 4 = 0 /\ 0 < radix64_mc <= 76)%nat.
Proof. exact radix64_mc_bounds. Qed.
Print Assumptions C19_radix64_line_length.

Theorem C19_crc24_parameters : crc24_init = 11994318 /\ crc24_poly = 25578747 /\ crc24 [] = 11994318.
Proof. exact crc24_parameters. Qed.
Print Assumptions C19_crc24_parameters.

Theorem C19_crc24_affine : forall a b c, length a = length b -> length b = length c ->
  crc24 (xor_octets (xor_octets a b) c) = N.lxor (N.lxor (crc24 a) (crc24 b)) (crc24 c).
Proof. exact crc24_affine. Qed.
Print Assumptions C19_crc24_affine.

Theorem C19_crc24_line_roundtrip : forall l,
  exists cs, crc24_encode l = PAD :: cs /\ length cs = 4%nat /\ radix64_decode cs = crc24_octets l.
Proof. exact crc24_line_roundtrip. Qed.
Print Assumptions C19_crc24_line_roundtrip.

(* body lengths: every length below 2^32 incl. the boundaries 191/192 and 8383/8384 *)
Theorem C19_pktlen_roundtrip : forall n rest lt, n < 4294967296 ->
  pktlen_decode (pktlen_encode n ++ rest) true lt = Some (LenDefinite n (length (pktlen_encode n))).
Proof. exact pktlen_roundtrip. Qed.
Print Assumptions C19_pktlen_roundtrip.

Theorem C19_pktlen_form : forall n,
  length (pktlen_encode n) = if n <? 192 then 1%nat else if n <? 8384 then 2%nat else 5%nat.
Proof. exact pktlen_encode_length. Qed.
Print Assumptions C19_pktlen_form.

Theorem C19_pktlen_shortest : forall l lt n k, octets l ->
  pktlen_decode l true lt = Some (LenDefinite n k) -> (length (pktlen_encode n) <= k)%nat.
Proof. exact pktlen_shortest. Qed.
Print Assumptions C19_pktlen_shortest.

Theorem C19_pktlen_consumed : forall l nf lt n k,
  pktlen_decode l nf lt = Some (LenDefinite n k) -> (1 <= k <= length l)%nat.
Proof. exact pktlen_consumed. Qed.
Print Assumptions C19_pktlen_consumed.

Theorem C19_pktlen_partial : forall l lt n, octets l ->
  pktlen_decode l true lt = Some (LenPartial n) ->
  exists a r, l = a :: r /\ 224 <= a < 255 /\ n = 2 ^ (a - 224) /\ n <= 1073741824.
Proof. exact pktlen_partial_spec. Qed.
Print Assumptions C19_pktlen_partial.

(* tag + length + body is split back into exactly tag and body *)
Theorem C19_packet_extract : forall tag body rest, tag < 64 -> len body < 4294967296 ->
  body_extract (packet tag body ++ rest) = Some (tag, firstn (length body) (body ++ rest)) /\
  firstn (length body) (body ++ rest) = body.
Proof. intros. rewrite firstn_app_exact by reflexivity. split; [now apply packet_extract|reflexivity]. Qed.
Print Assumptions C19_packet_extract.

(* multiprecision integers incl. 0; the bit count must fit the two-octet field *)
Theorem C19_mpi_roundtrip : forall n rest, N.size n < 65536 ->
  mpi_decode (mpi_encode n ++ rest) = Some (n, length (mpi_encode n)).
Proof. exact mpi_roundtrip. Qed.
Print Assumptions C19_mpi_roundtrip.

Theorem C19_mpi_consumed : forall l v k, mpi_decode l = Some (v, k) -> (2 <= k <= length l)%nat.
Proof. exact mpi_consumed. Qed.
Print Assumptions C19_mpi_consumed.

Theorem C19_s2k_count_all : forall c, c < 256 ->
  s2k_count c = s2k_count_c c /\ 1024 <= s2k_count c <= 65011712 /\ (c < 255 -> s2k_count c < s2k_count (c + 1)).
Proof. exact s2k_count_all. Qed.
Print Assumptions C19_s2k_count_all.

Theorem C19_s2k_stream_length : forall cnt nzp data, data <> [] ->
  len (s2k_stream cnt nzp data) = N.of_nat nzp + N.max cnt (len data).
Proof. exact s2k_stream_length. Qed.
Print Assumptions C19_s2k_stream_length.

(* ASCII armor: ArmorDecode (as implemented) applied to what ArmorEncode emits, every block type *)
Theorem C19_armor_roundtrip : forall ty data, octets data -> data <> [] ->
  armor_decode (armor_encode (Some ty) None [] data) = ArmOk ty data.
Proof. exact armor_roundtrip. Qed.
Print Assumptions C19_armor_roundtrip.

(* the full statement (all octet strings) is false: the block emitted for the empty string is refused *)
Theorem C19_armor_roundtrip_empty_refuted : forall ty, armor_decode (armor_encode (Some ty) None [] []) = ArmBadLayout.
Proof. exact armor_roundtrip_empty_refuted. Qed.
Print Assumptions C19_armor_roundtrip_empty_refuted.

(* plainb, txt, head_g, tail_s: PgpArmorLemmas.v; txt ty R C is the block the encoder emits around radix-64 text R and
   checksum line C, head_g false ty its BEGIN line without the blank line after it *)
Theorem C19_armor_rejects_wrong_checksum : forall ty data c1 c2 c3 c4, octets data -> data <> [] ->
  Forall (fun c => plainb c = true) [c1; c2; c3; c4] -> [PAD; c1; c2; c3; c4] <> crc24_encode data ->
  armor_decode (txt ty (radix64_encode true data) [PAD; c1; c2; c3; c4]) = ArmBadChecksum.
Proof. exact armor_rejects_wrong_checksum. Qed.
Print Assumptions C19_armor_rejects_wrong_checksum.

Theorem C19_armor_rejects_changed_data : forall ty d1 d2, octets d1 -> octets d2 -> d2 <> [] ->
  crc24_encode d1 <> crc24_encode d2 ->
  armor_decode (txt ty (radix64_encode true d2) (crc24_encode d1)) = ArmBadChecksum.
Proof. exact armor_rejects_changed_data. Qed.
Print Assumptions C19_armor_rejects_changed_data.

Theorem C19_armor_rejects_missing_separator : forall ty data, octets data -> data <> [] ->
  armor_decode (head_g false ty ++ (radix64_encode true data ++ crlf ++ crc24_encode data) ++ tail_s ty) = ArmNoSeparator.
Proof. exact armor_rejects_missing_separator. Qed.
Print Assumptions C19_armor_rejects_missing_separator.

Theorem C19_armor_rejects_nested : forall ty d1 d2, octets d1 -> octets d2 ->
  armor_decode (head_s ty ++ armor_encode (Some ty) None [] d2
                ++ (radix64_encode true d1 ++ crlf ++ crc24_encode d1) ++ tail_s ty) = ArmNested.
Proof. exact armor_rejects_nested. Qed.
Print Assumptions C19_armor_rejects_nested.

(* packet level: PacketDecode (header and body decoders as implemented) applied to the RFC field encoders.
   One theorem for every packet type; wf_fields lists the side conditions per type (lengths of fixed fields, MPIs
   with a 16-bit bit count, non-zero where the decoder insists, non-empty data where it insists) *)
Theorem C19_packet_roundtrip : forall f rest, wf_fields f -> packet_decode (packet_of f ++ rest) = PdOk f.
Proof. exact packet_roundtrip. Qed.
Print Assumptions C19_packet_roundtrip.

Theorem C19_packet_roundtrip_key : forall tag nf v tm a km, (tag = 6 \/ tag = 14) -> (v = 4 \/ v = 5) -> tm < 4294967296 ->
  km_matches a km = true -> km_wf km ->
  decode_body tag nf (fields_body (PfKey tag v tm a km)) = PdOk (PfKey tag v tm a km).
Proof. exact roundtrip_key. Qed.
Print Assumptions C19_packet_roundtrip_key.

Theorem C19_packet_roundtrip_uid : forall nf u, decode_body 13 nf u = PdOk (PfUid u).
Proof. exact roundtrip_uid. Qed.
Print Assumptions C19_packet_roundtrip_uid.

Theorem C19_packet_roundtrip_signature : forall nf v ty pk h hashed unhashed left ms, (v = 4 \/ v = 5) ->
  len hashed < 65536 -> len unhashed < 65536 -> area_ok hashed = true -> area_ok unhashed = true ->
  length left = 2%nat -> sig_mpi_count pk = Some (length ms) -> Forall mpi_ok ms -> Forall (fun m => m <> 0) ms ->
  decode_body 2 nf (sig4_body v ty pk h hashed unhashed left ms) = PdOk (PfSig4 v ty pk h hashed unhashed left ms).
Proof. exact roundtrip_sig4. Qed.
Print Assumptions C19_packet_roundtrip_signature.

Theorem C19_packet_roundtrip_signature_v3 : forall nf ty tm issuer pk h left ms, tm < 4294967296 -> length issuer = 8%nat ->
  length left = 2%nat -> sig_mpi_count pk = Some (length ms) -> Forall mpi_ok ms -> Forall (fun m => m <> 0) ms ->
  decode_body 2 nf (sig3_body ty tm issuer pk h left ms) = PdOk (PfSig3 ty tm issuer pk h left ms).
Proof. exact roundtrip_sig3. Qed.
Print Assumptions C19_packet_roundtrip_signature_v3.

Theorem C19_subpacket_roundtrip : forall t crit d rest, t < 128 -> len d + 1 < 4294967296 ->
  subpkt_split (subpacket t crit d ++ rest) = Some (t, d, rest).
Proof. exact subpacket_roundtrip. Qed.
Print Assumptions C19_subpacket_roundtrip.

Theorem C19_packet_roundtrip_literal : forall nf fm fn tm d, tm < 4294967296 -> d <> [] ->
  decode_body 11 nf (lit_body fm fn tm d) = PdOk (PfLit fm fn tm d).
Proof. exact roundtrip_lit. Qed.
Print Assumptions C19_packet_roundtrip_literal.

(* the full statement (all data) is false: the literal packet of an empty document is refused (known finding) *)
Theorem C19_packet_roundtrip_literal_empty_refuted : forall nf fm fn tm, decode_body 11 nf (lit_body fm fn tm []) = PdError.
Proof. exact roundtrip_lit_empty_refuted. Qed.
Print Assumptions C19_packet_roundtrip_literal_empty_refuted.

Theorem C19_packet_roundtrip_compressed : forall nf a d, d <> [] -> decode_body 8 nf (comp_body a d) = PdOk (PfComp a d).
Proof. exact roundtrip_comp. Qed.
Print Assumptions C19_packet_roundtrip_compressed.

Theorem C19_packet_roundtrip_skesk : forall nf sk s e, s2k_ok s -> decode_body 3 nf (skesk4_body sk s e) = PdOk (PfSkesk4 sk s e).
Proof. exact roundtrip_skesk4. Qed.
Print Assumptions C19_packet_roundtrip_skesk.

Theorem C19_packet_roundtrip_skesk_v5 : forall nf sk ae s iv e, s2k_ok s -> length iv = aead_ivlen_n ae -> e <> [] ->
  decode_body 3 nf (skesk5_body sk ae s iv e) = PdOk (PfSkesk5 sk ae s iv e).
Proof. exact roundtrip_skesk5. Qed.
Print Assumptions C19_packet_roundtrip_skesk_v5.

Theorem C19_packet_roundtrip_pkesk : forall nf keyid a e, length keyid = 8%nat -> esk_matches a e = true -> esk_wf e ->
  decode_body 1 nf (pkesk_body keyid a e) = PdOk (PfPkesk keyid a e).
Proof. exact roundtrip_pkesk. Qed.
Print Assumptions C19_packet_roundtrip_pkesk.

Theorem C19_packet_roundtrip_seipd : forall nf d, d <> [] -> decode_body 18 nf (seipd_body d) = PdOk (PfSeipd d).
Proof. exact roundtrip_seipd. Qed.
Print Assumptions C19_packet_roundtrip_seipd.

Theorem C19_packet_roundtrip_aead : forall nf sk ae cs iv d, length iv = aead_ivlen_n ae -> d <> [] ->
  decode_body 20 nf (aead_body sk ae cs iv d) = PdOk (PfAead sk ae cs iv d).
Proof. exact roundtrip_aead. Qed.
Print Assumptions C19_packet_roundtrip_aead.

Theorem C19_packet_roundtrip_mdc : forall h, length h = 20%nat -> decode_body 19 true h = PdOk (PfMdc h).
Proof. exact roundtrip_mdc. Qed.
Print Assumptions C19_packet_roundtrip_mdc.

Example C19_example_packet : wf_fields (PfKey 6 4 1600000000 19 (KmECsig [42; 134; 72; 206; 61; 3; 1; 7] 1234567))
  /\ packet_of (PfUid [65; 66]) = [205; 2; 65; 66].
Proof. split; [|reflexivity]. split; [vm_compute; reflexivity|]. repeat split; try (vm_compute; (reflexivity || lia)); auto. Qed.
Example C19_example_armor : txt ArmMessage (radix64_encode true [1]) (crc24_encode [1]) = armor_encode (Some ArmMessage) None [] [1]
  /\ armor_decode (armor_encode (Some ArmMessage) None [] [1]) = ArmOk ArmMessage [1].
Proof. vm_compute. split; reflexivity. Qed.
Example C19_nonvacuous_octets : octets [0; 255; 61; 13; 10].
Proof. unfold octets, octet. repeat constructor. Qed.
Example C19_example_radix64 : radix64_encode true [0x14; 0xFB; 0x9C; 0x03; 0xD9; 0x7E] = [70; 80; 117; 99; 65; 57; 108; 43].   (* RFC 4648 vector "FPucA9l+" *)
Proof. vm_compute. reflexivity. Qed.
Example C19_example_crc24 : crc24 [] = 0xB704CE.
Proof. vm_compute. reflexivity. Qed.
Example C19_example_pktlen : map pktlen_encode [191; 192; 8383; 8384; 4294967295]
  = [[191]; [192; 0]; [223; 255]; [255; 0; 0; 32; 192]; [255; 255; 255; 255; 255]].
Proof. vm_compute. reflexivity. Qed.
Example C19_example_s2k : s2k_count 96 = 65536 /\ s2k_count 0 = 1024 /\ s2k_count 255 = 65011712.
Proof. vm_compute. repeat split. Qed.
Example C19_example_mpi : mpi_encode 1 = [0; 1; 1] /\ mpi_encode 511 = [0; 9; 1; 255] /\ mpi_encode 0 = [0; 0].   (* RFC 4880 3.2 *)
Proof. vm_compute. repeat split. Qed.
