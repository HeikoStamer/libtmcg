(* C11 -- Export and import round-trip every object unchanged.
   Each property theorem is closed by `exact <lemma>` (the two injectivity theorems by `roundtrip_injective` applied to the
   round trips) and followed by Print Assumptions. *)
From Coq Require Import ZArith NArith List Lia.
From LT Require Import gen_Consts CodecModel CodecLemmas.
Import ListNotations.

(* integers in the textual transport encoding survive unchanged: zero, negative, any length *)
Theorem C11_base62_roundtrip : forall z : Z, decode62 (encode62 z) = Some z.
Proof. exact base62_roundtrip. Qed.
Print Assumptions C11_base62_roundtrip.

(* the encoding never produces a delimiter, NUL or newline (needed by every framed format) *)
Theorem C11_base62_no_delimiter : forall z : Z, Forall plain (encode62 z).
Proof. exact encode62_plain. Qed.
Print Assumptions C11_base62_no_delimiter.

Theorem C11_vtmf_card_roundtrip : forall c : Z * Z, import_vcard (export_vcard c) = Some c.
Proof. exact vcard_roundtrip. Qed.
Print Assumptions C11_vtmf_card_roundtrip.

Theorem C11_vtmf_cardsecret_roundtrip : forall r : Z, import_vsecret (export_vsecret r) = Some r.
Proof. exact vsecret_roundtrip. Qed.
Print Assumptions C11_vtmf_cardsecret_roundtrip.

(* k x w matrix, 1 <= k <= TMCG_MAX_PLAYERS, 1 <= w <= TMCG_MAX_TYPEBITS (limits regenerated from libTMCG.hh) *)
Theorem C11_tmcg_card_roundtrip : forall c, wf_tcard c -> import_tcard (export_tcard c) = Some c.
Proof. exact tcard_roundtrip. Qed.
Print Assumptions C11_tmcg_card_roundtrip.

Theorem C11_tmcg_cardsecret_roundtrip : forall c, wf_tsecret c -> import_tsecret (export_tsecret c) = Some c.
Proof. exact tsecret_roundtrip. Qed.
Print Assumptions C11_tmcg_cardsecret_roundtrip.

Theorem C11_stack_roundtrip : forall st, (1 <= length st <= Z.to_nat TMCG_MAX_CARDS)%nat ->
  import_vstack [] (export_vstack st) = Some st.
Proof. exact vstack_roundtrip. Qed.
Print Assumptions C11_stack_roundtrip.

(* QR-encoded stacks: TMCG_Stack<TMCG_Card> (the same template code as for VTMF_Card), every card within the dimension limits *)
Theorem C11_tmcg_stack_roundtrip : forall st, (1 <= length st <= Z.to_nat TMCG_MAX_CARDS)%nat -> Forall wf_tcard st ->
  import_tstack [] (export_tstack st) = Some st.
Proof. exact tstack_roundtrip. Qed.
Print Assumptions C11_tmcg_stack_roundtrip.

Theorem C11_stacksecret_roundtrip : forall ss, wf_vstacksecret ss ->
  import_vstacksecret [] (export_vstacksecret ss) = Some ss.
Proof. exact vstacksecret_roundtrip. Qed.
Print Assumptions C11_stacksecret_roundtrip.

(* QR-encoded stack secrets: TMCG_StackSecret<TMCG_CardSecret>, index component a permutation, every secret within the limits *)
Theorem C11_tmcg_stacksecret_roundtrip : forall ss, wf_tstacksecret ss ->
  import_tstacksecret [] (export_tstacksecret ss) = Some ss.
Proof. exact tstacksecret_roundtrip. Qed.
Print Assumptions C11_tmcg_stacksecret_roundtrip.

(* stacks do not reset on import: the statement of C11 is about fresh objects for them *)
Theorem C11_stack_import_appends : forall old st, (1 <= length st <= Z.to_nat TMCG_MAX_CARDS)%nat ->
  import_vstack old (export_vstack st) = Some (old ++ st).
Proof. exact vstack_import_appends. Qed.
Print Assumptions C11_stack_import_appends.

(* import of a QR-encoded stack into a used stack appends (same template behaviour as C11_stack_import_appends) *)
Theorem C11_tmcg_stack_import_appends : forall old st, (1 <= length st <= Z.to_nat TMCG_MAX_CARDS)%nat -> Forall wf_tcard st ->
  import_tstack old (export_tstack st) = Some (old ++ st).
Proof. exact tstack_import_appends. Qed.
Print Assumptions C11_tmcg_stack_import_appends.

(* TMCG_PublicKey text pub|name|email|type|m|y|nizk|sig: round trip for every key whose four string fields contain no '|'
   (sig is the unparsed remainder and may contain anything); the guard is necessary (pubkey_bar_in_name_refuted) *)
Theorem C11_public_key_roundtrip : forall k, wf_pubkey k -> import_pubkey (export_pubkey k) = Some k.
Proof. exact pubkey_roundtrip. Qed.
Print Assumptions C11_public_key_roundtrip.

(* distinct objects within the limits never share a text: export is injective for every modelled type *)
Theorem C11_export_injective :
  (forall a b : Z, encode62 a = encode62 b -> a = b) /\
  (forall a b, wf_tcard a -> wf_tcard b -> export_tcard a = export_tcard b -> a = b) /\
  (forall a b, wf_tsecret a -> wf_tsecret b -> export_tsecret a = export_tsecret b -> a = b) /\
  (forall a b, wf_vstacksecret a -> wf_vstacksecret b -> export_vstacksecret a = export_vstacksecret b -> a = b) /\
  (forall a b, wf_tstacksecret a -> wf_tstacksecret b -> export_tstacksecret a = export_tstacksecret b -> a = b) /\
  (forall a b, wf_pubkey a -> wf_pubkey b -> export_pubkey a = export_pubkey b -> a = b).
Proof.
  repeat split.
  - intros a b E. apply (roundtrip_injective (fun _ => True) encode62 decode62 (fun x _ => base62_roundtrip x) a b I I E).
  - exact (roundtrip_injective _ _ _ tcard_roundtrip).
  - exact (roundtrip_injective _ _ _ tsecret_roundtrip).
  - exact (roundtrip_injective _ _ _ vstacksecret_roundtrip).
  - exact (roundtrip_injective _ _ _ tstacksecret_roundtrip).
  - exact (roundtrip_injective _ _ _ pubkey_roundtrip).
Qed.
Print Assumptions C11_export_injective.

Theorem C11_stack_export_injective :
  (forall a b, (1 <= length a <= Z.to_nat TMCG_MAX_CARDS)%nat -> (1 <= length b <= Z.to_nat TMCG_MAX_CARDS)%nat ->
               export_vstack a = export_vstack b -> a = b) /\
  (forall a b, ((1 <= length a <= Z.to_nat TMCG_MAX_CARDS)%nat /\ Forall wf_tcard a) ->
               ((1 <= length b <= Z.to_nat TMCG_MAX_CARDS)%nat /\ Forall wf_tcard b) ->
               export_tstack a = export_tstack b -> a = b).
Proof.
  split.
  - exact (roundtrip_injective _ export_vstack (import_vstack []) vstack_roundtrip).
  - apply (roundtrip_injective _ export_tstack (import_tstack [])). intros x [H1 H2]. exact (tstack_roundtrip x H1 H2).
Qed.
Print Assumptions C11_stack_export_injective.

(* non-vacuity: concrete objects meeting the hypotheses *)
Example C11_nonvacuous_tcard : wf_tcard [[5; -7; 0]; [1; 2; 3]]%Z.
Proof. unfold wf_tcard. cbn. repeat split; try lia; repeat constructor. Qed.
Example C11_nonvacuous_stacksecret : wf_vstacksecret [(2%N, 11%Z); (0%N, (-4)%Z); (1%N, 0%Z)].
Proof. unfold wf_vstacksecret. cbn. repeat split; try lia; repeat constructor. Qed.
Example C11_nonvacuous_tsecret : wf_tsecret [[(5, 1); (-7, 0)]; [(0, 0); (62, 1)]]%Z.
Proof. exact wf_tsecret_example. Qed.
Example C11_nonvacuous_tstacksecret : wf_tstacksecret [(1%N, [[(5, 1)]; [(9, 0)]]%Z); (0%N, [[(-3, 0)]; [(4, 1)]]%Z)].
Proof.
  (* closed bounds and Forall facts over literal lists: every conjunct is decided by computation *)
  unfold wf_tstacksecret, wf_tsecret. cbn [length hd fst snd].
  repeat split; try (vm_compute; lia); try reflexivity; repeat constructor; cbn; try lia; repeat constructor; try (vm_compute; lia).
Qed.
Example C11_nonvacuous_pubkey : wf_pubkey {| pk_name := [65; 108]%N; pk_email := [97; 64; 98]%N; pk_type := [84]%N; pk_m := 35%Z; pk_y := 6%Z; pk_nizk := [110; 94]%N; pk_sig := [115; 124; 94]%N |}.
Proof. unfold wf_pubkey, nobar. cbn. repeat split; repeat constructor; discriminate. Qed.
