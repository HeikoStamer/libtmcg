(* TsigLemmas: the two signature verifiers of TsigModel return the textbook verdicts, checked Schnorr shares combine to a valid
   signature, and the last step of threshold DSS (r = g^(1/k), s = k (m + x r)) is accepted (C16). *)
From Coq Require Import ZArith Znumtheory List Bool Lia.
From LT Require Import gen_Consts Zbase CoinFlipArith CoinFlipModel CoinFlipLemmas TsigModel.
Import ListNotations.
Local Open Scope Z_scope.

(* group hypotheses for the signature schemes: 1 < p, 1 < q, g of order dividing q, table large enough.
   (The public key y is required to be in the subgroup separately.) *)
Definition sgroup (G : group) : Prop :=
  1 < gp G /\ 1 < gq G /\ bitlen (gq G) <= TMCG_MAX_FPOWM_T /\ in_sub (gp G) (gq G) (gg G).

Lemma bitlen_bound x : 0 <= x -> x < 2 ^ bitlen x.
Proof.
  intros Hx. unfold bitlen. destruct (Z.eqb_spec x 0) as [->|N]; [cbn; lia|].
  pose proof (Z.log2_spec x ltac:(lia)) as [_ H]. replace (Z.log2 x + 1) with (Z.succ (Z.log2 x)) by lia. exact H.
Qed.

Section Sig.
  Variable H : list Z -> Z.
  Variable G : group.
  Hypothesis SG : sgroup G.
  Let p := gp G.
  Let q := gq G.
  Let g := gg G.

  Lemma sgroup_p : 1 < p. Proof. apply SG. Qed.
  Lemma sgroup_q : 1 < q. Proof. apply SG. Qed.
  Lemma sgroup_g : in_sub p q g. Proof. apply SG. Qed.

  (* x^e in the subgroup, e any integer: CoinFlipArith.subexp for the group G, whose lemmas are used *)
  Definition sexp (x e : Z) : Z := powm x (e mod q) p.

  Lemma sexp_subexp x e : sexp x e = subexp p q x e.
  Proof. reflexivity. Qed.

  Lemma in_sub_mod x : in_sub p q x -> in_sub p q (x mod p).
  Proof. unfold in_sub. intros Hx. pose proof sgroup_p. pose proof sgroup_q. now rewrite powm_base_mod by lia. Qed.

  (* fpowm on subgroup elements and exponents within the table *)
  Lemma fpowm_sub x e : in_sub p q x -> bitlen (Z.abs e) <= bitlen q ->
    fpowm (table_bits G) x e p = Some (subexp p q x e).
  Proof.
    intros Hx Hb. unfold fpowm. destruct SG as (_ & _ & B & _). rewrite table_bits_eq by assumption. fold q in B |- *.
    destruct (Z.gtb_spec (bitlen (Z.abs e)) TMCG_MAX_FPOWM_T); [lia|].
    destruct (Z.leb_spec (bitlen (Z.abs e)) (bitlen q)); [|lia].
    rewrite (powm_subexp p q sgroup_p sgroup_q) by (assumption || lia).
    destruct (Z.ltb_spec e 0); [rewrite (subexp_inv p q sgroup_p sgroup_q) by assumption|]; do 2 f_equal; lia.
  Qed.

  (* the inverse of y is y^-1, so y^e comes out for either sign of e *)
  Lemma powm_signed_sub y e : in_sub p q y -> powm_signed y e p = Some (subexp p q y e).
  Proof.
    intros Hy. pose proof sgroup_p as Hp. pose proof sgroup_q as Hq. unfold powm_signed. destruct (Z.ltb_spec e 0).
    - assert (E1 : invm y p = Some (subexp p q y (-1))).
      { apply invm_eq; [lia|now apply subexp_range|].
        rewrite <- (Zmult_mod_idemp_l y), <- (powm_1_r y p), (powm_subexp p q Hp Hq y 1), <- subexp_add by (assumption || lia).
        now apply subexp_0. }
      rewrite E1, (powm_subexp p q Hp Hq), subexp_mul by (try apply subexp_in_sub; assumption || lia). do 2 f_equal. ring.
    - f_equal. now apply powm_subexp.
  Qed.

  Theorem nts_verify_iff_textbook y m c s : in_sub p q y ->
    nts_verify H G y m c s = Some (schnorr_textbook H G y m c s).
  Proof.
    intros Hy. pose proof sgroup_p. pose proof sgroup_q. pose proof sgroup_g as Hg.
    unfold nts_verify, schnorr_textbook. fold p q g.
    destruct (Z.ltb_spec s 0), (Z.leb_spec 0 s); try lia; cbn [orb andb]; [reflexivity|].
    destruct (Z.geb_spec s q), (Z.ltb_spec s q); try lia; cbn [orb andb]; [reflexivity|].
    assert (Hs : bitlen (Z.abs s) <= bitlen q) by (apply bitlen_mono; lia).
    rewrite (fpowm_sub g s Hg Hs). rewrite (powm_signed_sub y c Hy).
    rewrite (subexp_inv p q sgroup_p sgroup_q y c Hy). do 3 f_equal.
    now rewrite !(subexp_pow p q sgroup_p sgroup_q), <- Zmult_mod.
  Qed.

  (* every s outside [0, q) is refused: in particular the oversize exponents for which the fixed-base power
     evaluates to 0 (the forgery (H [m; 0], 2^|q|) accepted before fix c546d31) *)
  Theorem nts_verify_out_of_range y m c s : s < 0 \/ q <= s -> nts_verify H G y m c s = Some false.
  Proof.
    intros R. unfold nts_verify. fold q.
    destruct (Z.ltb_spec s 0), (Z.geb_spec s q); try lia; reflexivity.
  Qed.

  Lemma nts_combine_spec l : nts_combine q l = (fold_right Z.add 0 l) mod q.
  Proof. exact (fold_addm (fun x => x) q l 0). Qed.

  (* a share that passes the check satisfies g^s_j = r_j y_j^c in the group *)
  Lemma share_check_sound yj rj c sj : in_sub p q yj ->
    nts_share_check G yj rj c sj = Some true -> subexp p q g sj = (subexp p q yj c * rj) mod p.
  Proof.
    intros Hy. pose proof sgroup_p. pose proof sgroup_q. pose proof sgroup_g as Hg. unfold nts_share_check. fold p q g.
    destruct (Z.geb_spec (Z.abs sj) q) as [R|R]; [discriminate|].
    rewrite (fpowm_sub g sj Hg) by (apply bitlen_mono; lia).
    rewrite (powm_signed_sub yj c Hy). intros [= E]. now apply Z.eqb_eq in E.
  Qed.

  Lemma share_check_honest z u c : 0 <= c ->
    nts_share_check G (sexp g z) (sexp g u) c (nts_share q c z u) = Some true.
  Proof.
    intros Hc. pose proof sgroup_p. pose proof sgroup_q. pose proof sgroup_g as Hg. rewrite !sexp_subexp. unfold nts_share_check, nts_share. fold p q g.
    set (s := ((c * z) mod q + u) mod q).
    assert (Rs : 0 <= s < q) by (apply Z.mod_pos_bound; lia).
    destruct (Z.geb_spec (Z.abs s) q) as [R|R]; [lia|].
    rewrite (fpowm_sub g s Hg) by (apply bitlen_mono; lia).
    rewrite (powm_signed_sub _ c (subexp_in_sub p q sgroup_p sgroup_q g z Hg)).
    do 2 f_equal. apply Z.eqb_eq.
    rewrite (subexp_mul p q sgroup_p sgroup_q), <- (subexp_add p q sgroup_p sgroup_q) by assumption. apply subexp_congr.
    unfold s. rewrite Zmod_mod. rewrite Zplus_mod_idemp_l. f_equal. ring.
  Qed.

  Definition prodm (l : list Z) : Z := fold_right (fun x acc => (x * acc) mod p) (1 mod p) l.

  Lemma prodm_range l : 0 <= prodm l < p.
  Proof. pose proof sgroup_p. destruct l; apply Z.mod_pos_bound; lia. Qed.

  Lemma prodm_in_sub l : Forall (in_sub p q) l -> in_sub p q (prodm l).
  Proof.
    pose proof sgroup_p. pose proof sgroup_q. induction 1 as [|x l Hx _ IH]; cbn [prodm fold_right]; [apply in_sub_1|apply in_sub_mul]; assumption || lia.
  Qed.

  (* checked shares combine: g^(sum s_j) = (prod r_j) (prod y_j)^c *)
  Lemma combine_checked (ys rs ss : list Z) c :
    Forall (in_sub p q) ys -> Forall (in_sub p q) rs ->
    Forall2 (fun yr sj => nts_share_check G (fst yr) (snd yr) c sj = Some true) (combine ys rs) ss ->
    length ys = length rs ->
    subexp p q g (fold_right Z.add 0 ss) = (subexp p q (prodm ys) c * prodm rs) mod p.
  Proof.
    intros Hys. revert rs ss. pose proof sgroup_p. pose proof sgroup_g as Hg.
    induction Hys as [|y ys Hy Hys IH]; intros rs ss Hrs F L.
    - destruct rs; [|discriminate]. inversion F; subst. cbn [fold_right prodm].
      pose proof sgroup_q. rewrite (subexp_0 p q sgroup_p). unfold subexp. rewrite powm_base_mod, powm_1_l, <- Zmult_mod by (lia || apply Z.mod_pos_bound; lia).
      symmetry. now apply Z.mod_1_l.
    - destruct rs as [|r rs]; [discriminate|]. injection L as L. inversion Hrs as [|? ? Hr Hrs']; subst.
      cbn [combine] in F. inversion F as [|? sj ? ss' Hc F']; subst. cbn [fst snd] in Hc.
      cbn [fold_right prodm]. fold (prodm ys) (prodm rs).
      rewrite (subexp_add p q sgroup_p sgroup_q), (share_check_sound y r c sj Hy Hc), (IH rs ss' Hrs' F' L), (subexp_mul_base p q sgroup_p sgroup_q) by assumption.
      rewrite <- Zmult_mod, Zmult_mod_idemp_l, (Zmult_mod_idemp_r (r * prodm rs)). f_equal. ring.
  Qed.

  (* the combined signature of a run in which every used share passed its check (own shares pass by
     share_check_honest, reconstructed shares are recomputed from the reconstructed secrets) satisfies the
     textbook equation under y = prod y_j with the nonce r = prod r_j *)
  Theorem tschnorr_valid (ys rs ss : list Z) m :
    Forall (in_sub p q) ys -> Forall (in_sub p q) rs -> length ys = length rs ->
    let y := prodm ys in let r := prodm rs in let c := nts_challenge H m r in
    Forall2 (fun yr sj => nts_share_check G (fst yr) (snd yr) c sj = Some true) (combine ys rs) ss ->
    schnorr_textbook H G y m c (nts_combine q ss) = true.
  Proof.
    intros Hys Hrs L y r c F. pose proof sgroup_p. pose proof sgroup_q. pose proof sgroup_g as Hg.
    pose proof (combine_checked ys rs ss c Hys Hrs F L) as E. fold y r in E.
    assert (Hy : in_sub p q y) by now apply prodm_in_sub.
    assert (Hr : in_sub p q r) by now apply prodm_in_sub.
    unfold schnorr_textbook. fold p q g.
    assert (Rs : 0 <= nts_combine q ss < q) by (rewrite nts_combine_spec; apply Z.mod_pos_bound; lia).
    destruct (Z.leb_spec 0 (nts_combine q ss)); [|lia]. destruct (Z.ltb_spec (nts_combine q ss) q); [|lia]. cbn [andb].
    apply Z.eqb_eq. unfold c at 1, nts_challenge. do 2 f_equal.
    rewrite nts_combine_spec. rewrite Zmod_mod.
    rewrite Zmult_mod, <- !(subexp_pow p q sgroup_p sgroup_q), E.
    (* y^c r y^-c = r *)
    rewrite Zmult_mod_idemp_l.
    replace (subexp p q y c * r * subexp p q y (- c)) with (r * (subexp p q y c * subexp p q y (- c))) by ring.
    rewrite <- Zmult_mod_idemp_r, <- (subexp_add p q sgroup_p sgroup_q), Z.add_opp_diag_r, (subexp_0 p q sgroup_p), Z.mul_1_r by assumption.
    now rewrite Z.mod_small by apply prodm_range.
  Qed.

  Lemma honest_shares_check c : 0 <= c -> forall zs us, length zs = length us ->
    Forall2 (fun yr sj => nts_share_check G (fst yr) (snd yr) c sj = Some true)
            (combine (map (sexp g) zs) (map (sexp g) us))
            (map (fun zu => nts_share q c (fst zu) (snd zu)) (combine zs us)).
  Proof.
    intros Hc. induction zs as [|z zs IH]; intros [|u us] L; try discriminate; cbn [map combine].
    - constructor.
    - constructor; [cbn [fst snd]; now apply share_check_honest|]. apply IH. now injection L.
  Qed.

  (* honest run, no complaints: shares s_i = u_i + c z_i with y_i = g^z_i, r_i = g^u_i *)
  Corollary tschnorr_valid_honest (zs us : list Z) m : length zs = length us ->
    let ys := map (sexp g) zs in let rs := map (sexp g) us in
    let c := nts_challenge H m (prodm rs) in 0 <= c ->
    schnorr_textbook H G (prodm ys) m c (nts_combine q (map (fun zu => nts_share q c (fst zu) (snd zu)) (combine zs us))) = true.
  Proof.
    intros L ys rs c Hc. pose proof sgroup_g as Hg.
    assert (E : forall es, Forall (in_sub p q) (map (sexp g) es)).
    { intros es. apply Forall_map, Forall_forall. intros z _. now apply (subexp_in_sub p q sgroup_p sgroup_q). }
    apply tschnorr_valid; [apply E|apply E| |].
    - unfold ys, rs. now rewrite !map_length.
    - apply honest_shares_check; assumption.
  Qed.

  Theorem dss_verify_iff_textbook y m r s : dss_verify G y m r s = Some (dsa_textbook G y m r s).
  Proof.
    pose proof sgroup_p. pose proof sgroup_q. unfold dss_verify, dsa_textbook. fold p q g.
    destruct (Z.leb_spec r 0), (Z.ltb_spec 0 r); try lia; cbn [orb andb]; [reflexivity|].
    destruct (Z.geb_spec r q), (Z.ltb_spec r q); try lia; cbn [orb andb]; [reflexivity|].
    destruct (Z.leb_spec s 0), (Z.ltb_spec 0 s); try lia; cbn [orb andb]; [reflexivity|].
    destruct (Z.geb_spec s q), (Z.ltb_spec s q); try lia; cbn [orb andb]; [reflexivity|].
    destruct (invm s q) as [w|]; [|reflexivity].
    rewrite Zmult_mod_idemp_l.
    assert (R1 : 0 <= (m * w) mod q < q) by (apply Z.mod_pos_bound; lia).
    assert (R2 : 0 <= (r * w) mod q < q) by (apply Z.mod_pos_bound; lia).
    rewrite (fpowm_sub g _ sgroup_g) by (apply bitlen_mono; lia). f_equal.
    rewrite (subexp_pow p q sgroup_p sgroup_q), Zmod_mod, powm_spec, <- Zmult_mod by lia. apply Z.eqb_sym.
  Qed.

  (* the signature a correct signing run reconstructs is accepted (algebra of r = g^(1/k), s = k (m + x r));
     the sharing and interpolation that produce these values are TsigDssModel, TsigDssLemmas.tdss_valid *)
  Theorem dsa_algebra x k kinv m : prime q -> (k * kinv) mod q = 1 -> 0 <= kinv ->
    let y := sexp g x in let r := dss_r G kinv in let s := dss_s q k m x r in
    0 < r -> 0 < s -> dsa_textbook G y m r s = true.
  Proof.
    intros Pq Hk Hki y r s Hr Hs. pose proof sgroup_p. pose proof sgroup_q. pose proof sgroup_g as Hg.
    unfold dsa_textbook. fold p q g.
    assert (Rr : 0 <= r < q) by (apply Z.mod_pos_bound; lia).
    assert (Rs : 0 <= s < q) by (apply Z.mod_pos_bound; lia).
    destruct (Z.ltb_spec 0 r); [|lia]. destruct (Z.ltb_spec r q); [|lia].
    destruct (Z.ltb_spec 0 s); [|lia]. destruct (Z.ltb_spec s q); [|lia]. cbn [andb].
    destruct (invm_prime s q Pq) as [w Hw]; [rewrite Z.mod_small; lia|]. rewrite Hw.
    destruct (invm_inverse s q w ltac:(lia) Hw) as [Rw Ew].
    apply Z.eqb_eq.
    set (e := (m + x * r) mod q).
    (* e * w = kinv (mod q):  s = k e, so e = kinv s, e w = kinv s w = kinv *)
    assert (EW : (e * w) mod q = kinv mod q).
    { assert (S1 : s = (k * e) mod q) by reflexivity.
      assert (E1 : e mod q = (kinv * s) mod q).
      { rewrite S1. rewrite Zmult_mod_idemp_r. replace (kinv * (k * e)) with ((k * kinv) * e) by ring.
        rewrite <- Zmult_mod_idemp_l, Hk, Z.mul_1_l. reflexivity. }
      rewrite <- Zmult_mod_idemp_l, E1, Zmult_mod_idemp_l.
      replace (kinv * s * w) with (kinv * (s * w)) by ring.
      rewrite <- Zmult_mod_idemp_r, Ew, Z.mul_1_r. reflexivity. }
    (* g^u1 y^u2 = g^((m + x r) w) *)
    assert (P1 : (g ^ ((m mod q * w) mod q) * y ^ ((r * w) mod q)) mod p = subexp p q g kinv).
    { rewrite Zmult_mod, <- !(subexp_pow p q sgroup_p sgroup_q). unfold y. rewrite sexp_subexp at 1. rewrite (subexp_mul p q sgroup_p sgroup_q), <- (subexp_add p q sgroup_p sgroup_q) by assumption.
      apply subexp_congr.
      rewrite <- EW. unfold e. rewrite Zmult_mod_idemp_l.
      rewrite Zplus_mod, Zmult_mod_idemp_l, <- Zplus_mod. f_equal. ring. }
    rewrite P1. unfold r, dss_r. fold p q g. f_equal. symmetry. now apply powm_subexp.
  Qed.
End Sig.
