(* PgpLenCodecLemmas (C12): index safety of the card / stack importers modelled in CodecModel, for ALL byte strings:
   whatever text is imported, the resulting object has dimensions inside the library limits and every index it
   carries is inside the object; together with the size guard of the cut-and-choose verifiers (fix 517d04b) this
   makes every index of TMCG_MixStack lie inside the stack. *)
From Coq Require Import ZArith NArith List Bool Lia ZifyBool Arith.
From LT Require Import gen_Consts CodecModel CodecLemmas PgpLenModel.
Import ListNotations.
Local Open Scope N_scope.

(* read_fields and read_cards are instances of this loop *)
Lemma read_items_length {A} p (imp : bytes -> option A) n : forall s l r, read_items p imp n s = Some (l, r) -> length l = n.
Proof.
  induction n as [|n IH]; intros s l r; cbn [read_items].
  - intros E; inversion E; reflexivity.
  - destruct (field s p) as [[f r0]|]; [|discriminate].
    destruct (imp f); [|discriminate].
    destruct (read_items p imp n r0) as [[l' r']|] eqn:R; [|discriminate].
    intros E; inversion E; subst. cbn. f_equal. eapply IH; eauto.
Qed.

Lemma chunk_shape k w : forall l : list Z, length l = (k * w)%nat ->
  length (chunk k w l) = k /\ Forall (fun row => length row = w) (chunk k w l).
Proof.
  induction k as [|k IH]; intros l Hl; cbn [chunk].
  - split; [reflexivity|constructor].
  - destruct (IH (skipn w l)) as [IL IF]. { rewrite skipn_length. lia. }
    split. { cbn. now rewrite IL. }
    constructor; [|exact IF]. rewrite firstn_length. lia.
Qed.

Lemma import_dim_range s lo hi v r : import_dim s lo hi = Some (v, r) -> lo <= v <= hi.
Proof.
  unfold import_dim. destruct (field s bar) as [[f r0]|]; [|discriminate].
  destruct (strtoul_full f) as [x|]; [|discriminate].
  destruct (N.leb_spec lo x); cbn [andb]; [|discriminate].
  destruct (N.leb_spec x hi); [|discriminate].
  intros E; inversion E; subst. lia.
Qed.

Lemma import_tcard_dims s c : import_tcard s = Some c ->
  (1 <= length c <= Z.to_nat TMCG_MAX_PLAYERS)%nat /\
  exists w, (1 <= w <= Z.to_nat TMCG_MAX_TYPEBITS)%nat /\ Forall (fun row => length row = w) c.
Proof.
  unfold import_tcard. destruct (cm s magic_crd bar) as [r0|]; [|discriminate].
  destruct (import_dim r0 1 (Z.to_N TMCG_MAX_PLAYERS)) as [[k r1]|] eqn:Dk; [|discriminate].
  destruct (import_dim r1 1 (Z.to_N TMCG_MAX_TYPEBITS)) as [[w r2]|] eqn:Dw; [|discriminate].
  destruct (read_fields (N.to_nat k * N.to_nat w) r2) as [[zs r3]|] eqn:R; [|discriminate].
  intros E; inversion E; subst; clear E.
  apply import_dim_range in Dk. apply import_dim_range in Dw.
  apply (read_items_length bar decode62) in R.
  destruct (chunk_shape (N.to_nat k) (N.to_nat w) zs R) as [CL CF].
  rewrite CL. split. { unfold TMCG_MAX_PLAYERS in *. lia. }
  exists (N.to_nat w). split; [unfold TMCG_MAX_TYPEBITS in *; lia|exact CF].
Qed.

Lemma import_size_range s v r : import_size s = Some (v, r) -> 1 <= v <= Z.to_N TMCG_MAX_CARDS.
Proof.
  unfold import_size. destruct (field s hat) as [[f r0]|]; [|discriminate].
  destruct (strtoul_full f) as [x|]; [|discriminate].
  destruct (N.leb_spec 1 x); cbn [andb]; [|discriminate].
  destruct (N.leb_spec x (Z.to_N TMCG_MAX_CARDS)); [|discriminate].
  intros E; inversion E; subst. lia.
Qed.

Lemma import_vstack_size s st : import_vstack [] s = Some st -> (1 <= length st <= Z.to_nat TMCG_MAX_CARDS)%nat.
Proof.
  unfold import_vstack. destruct (cm s magic_stk hat) as [r0|]; [|discriminate].
  destruct (import_size r0) as [[n r1]|] eqn:S; [|discriminate].
  destruct (read_cards (N.to_nat n) r1) as [[cs r2]|] eqn:R; [|discriminate].
  intros E; inversion E; subst; clear E. cbn [app].
  apply import_size_range in S. apply (read_items_length hat import_vcard) in R. rewrite R.
  unfold TMCG_MAX_CARDS in *. lia.
Qed.

Lemma read_pairs_spec size n : forall s ps r, read_pairs size n s = Some (ps, r) ->
  length ps = n /\ Forall (fun p => fst p < size) ps.
Proof.
  induction n as [|n IH]; intros s ps r; cbn [read_pairs].
  - intros E; inversion E; split; [reflexivity|constructor].
  - destruct (field s hat) as [[f r0]|]; [|discriminate].
    destruct (strtoul_full f) as [idx|]; [|discriminate].
    destruct (N.ltb_spec idx size); [|discriminate].
    destruct (field r0 hat) as [[g r1]|]; [|discriminate].
    destruct (import_vsecret g); [|discriminate].
    destruct (read_pairs size n r1) as [[ps' r']|] eqn:R; [|discriminate].
    intros E; inversion E; subst. destruct (IH _ _ _ R) as [IL IF].
    split; [cbn; now rewrite IL|constructor; [exact H|exact IF]].
Qed.

Lemma import_vstacksecret_indices s ss : import_vstacksecret [] s = Some ss ->
  (1 <= length ss <= Z.to_nat TMCG_MAX_CARDS)%nat /\ Forall (fun p => fst p < N.of_nat (length ss)) ss.
Proof.
  unfold import_vstacksecret. destruct (cm s magic_sts hat) as [r0|]; [|discriminate].
  destruct (import_size r0) as [[n r1]|] eqn:S; [|discriminate].
  destruct (read_pairs n (N.to_nat n) r1) as [[ps r2]|] eqn:R; [|discriminate].
  cbn [app]. destruct (perm_check ps n); [|discriminate].
  intros E; inversion E; subst; clear E.
  apply import_size_range in S. destruct (read_pairs_spec _ _ _ _ _ R) as [RL RF].
  rewrite RL. split. { unfold TMCG_MAX_CARDS in *. lia. }
  rewrite N2Nat.id. exact RF.
Qed.

(* TMCG_MixStack on an imported secret that passed the verifier's size guard: all indices are in range *)
Lemma mix_indices_in_range {A} (s : list A) text ss :
  import_vstacksecret [] text = Some ss -> mix_guard s ss = true -> mix_indices_ok s ss = true.
Proof.
  intros HI HG. apply import_vstacksecret_indices in HI. destruct HI as [_ HF].
  unfold mix_guard in HG. apply Nat.eqb_eq in HG.
  unfold mix_indices_ok. apply forallb_forall. intros i Hi. apply in_seq in Hi.
  destruct (nth_error ss i) as [[j x]|] eqn:E.
  - apply nth_error_In in E. rewrite Forall_forall in HF. specialize (HF _ E). cbn [fst] in HF.
    rewrite <- HG. destruct (N.ltb_spec j (N.of_nat (length ss))); [reflexivity|lia].
  - apply nth_error_None in E. lia.
Qed.

(* without the guard the indices can leave the stack secret: the guard added by 517d04b is necessary *)
Lemma mix_without_guard_refuted :
  exists (s : list (Z * Z)) text ss,
    import_vstacksecret [] text = Some ss /\ mix_guard s ss = false /\ mix_indices_ok s ss = false.
Proof.
  exists [(1, 2); (3, 4); (5, 6)]%Z, (export_vstacksecret [(1, 7%Z); (0, 8%Z)]), [(1, 7%Z); (0, 8%Z)].
  split; [|split].
  - apply vstacksecret_roundtrip. unfold wf_vstacksecret. vm_compute. repeat split; try lia; try discriminate; repeat constructor.
  - reflexivity.
  - reflexivity.
Qed.
