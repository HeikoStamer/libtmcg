(* SigmaLemmas: completeness of the VTMF-layer proofs of SigmaModel (C03): whatever the witness, the coins and
   the hash oracle, the verifier accepts what the honest prover wrote.  Each proof has the same three parts: what the prover
   writes (its power functions agree with powm), what the verifier compares on inputs in range, and the Schnorr identity. *)
From Coq Require Import ZArith Znumtheory Lia List Bool ZifyBool.
From LT Require Import Zbase gen_Consts SigmaPrim SigmaArith KeyRingModel KeyRingLemmas SigmaModel.
Import ListNotations.
Local Open Scope Z_scope.

Section Complete.
  Variable H : list Z -> Z.
  Variable hbits : Z.
  Variable G : group.
  Hypothesis WF : wf_params H hbits G.

  Let p := gp G.
  Let q := gq G.
  Let g := gg G.

  Let Hp : 1 < p := wf_p _ _ _ WF.
  Let Hodd : Z.odd p = true := wf_podd _ _ _ WF.
  Let Hq : 0 < q := wf_q _ _ _ WF.
  Let Hg : powm g q p = 1 := wf_g _ _ _ WF.
  Let Ht : sizeinbase2 q <= TMCG_MAX_FPOWM_T := wf_t _ _ _ WF.

  Definition elem (a : Z) : Prop := check_element G a = true.

  Lemma elem_spec a : elem a <-> in_group p q a.
  Proof. apply check_element_spec. Qed.

  (* how the proofs below pass the verifiers' CheckElement tests *)
  Lemma check_element_true a : in_group p q a -> check_element G a = true.
  Proof. apply check_element_spec. Qed.

  Theorem keyi_complete x raw craw r m1 m2 : 0 <= x ->
    keyi_commit G raw = Some (r, m1) ->
    keyi_respond G x r true (keyi_challenge G craw) = Some m2 ->
    keyi_verify G (powm g x p) true m1 (keyi_challenge G craw) true m2 = Accept.
  Proof.
    intros Hx. unfold keyi_commit, keyi_respond, keyi_challenge, keyi_verify.
    rewrite (table_g_fspowm H hbits G WF) by apply srandomm_range, Hq. fold p q g.
    pose proof (srandomm_range raw q Hq) as Br. pose proof (srandomm_range craw q Hq) as Bc.
    rewrite (abs_below _ q Bc). cbn [negb]. intros [= <- <-] [= <-].
    set (r := srandomm raw q) in *. set (c := srandomm craw q) in *.
    pose proof (Z.mod_pos_bound ((c * x) mod q + r) q Hq) as Bm. set (m2 := ((c * x) mod q + r) mod q) in *.
    pose proof (in_group_pow p q Hp Hq g x Hg Hx) as Gk.
    rewrite !check_element_true, (abs_below m2 q Bm), (table_g_fpowm H hbits), mpz_powm_nonneg
      by (assumption || lia || (apply in_group_pow; assumption || lia)). fold p g. cbn [negb orb].
    destruct (in_group_inverse p q Hp Hq _ (in_group_pow p q Hp Hq _ c (proj2 Gk) ltac:(lia))) as (ki & -> & _ & Mi).
    (* g^r * key^c = g^m2, and ki cancels key^c *)
    rewrite <- (schnorr_identity p q Hp Hq g x c m2 r) by (lia || unfold m2; rewrite Zmod_mod, Zplus_mod_idemp_l; f_equal; ring).
    rewrite Z.mul_comm, (mod_cancel p _ ki _ Mi), Z.eqb_refl by (apply powm_range; lia). reflexivity.
  Qed.

  Section WithKey.
    Variable h : Z.
    Variable th : ftable.

    (* with fpowm_usage the bases are g and the common key h, and th is h's table *)
    Definition cp_bases (fp : bool) (g2 h2 : Z) : Prop :=
      powm g2 q p = 1 /\ powm h2 q p = 1 /\ (fp = true -> g2 = g /\ h2 = h /\ th = precompute h q).

    Lemma cp_prove_spec fp g2 h2 x y alpha raw : cp_bases fp g2 h2 ->
      cp_prove H G h th x y g2 h2 alpha raw fp =
        let omega := srandomm raw q in
        let c := H [p; q; g; h; powm g2 omega p; powm h2 omega p; x; y; g2; h2] in Some (c, (- (c * alpha) + omega) mod q).
    Proof.
      intros (Hg2 & Hh2 & T). unfold cp_prove. fold p q g. pose proof (srandomm_range raw q Hq) as Bo. destruct fp.
      - destruct (T eq_refl) as (-> & -> & ->). now rewrite !Z.eqb_refl, (table_g_fspowm H hbits), fspowm_spec.
      - now rewrite !(spowm_spec _ q) by (assumption || lia).
    Qed.

    (* on a challenge of hash size and a response in [0,q) the verifier compares the challenge with the hash of the
       recomputed commitments *)
    Lemma cp_verify_spec fp g2 h2 x y c r : cp_bases fp g2 h2 -> (hbits <? sizeinbase2 c) = false -> 0 <= c -> 0 <= r < q ->
      cp_verify H hbits G h th x y g2 h2 true c r fp =
        if H [p; q; g; h; (powm g2 r p * powm x c p) mod p; (powm h2 r p * powm y c p) mod p; x; y; g2; h2] =? c
        then Accept else Reject.
    Proof.
      intros (_ & _ & T) Sc Hc Hr. unfold cp_verify. fold p q g.
      rewrite Sc, (abs_below r q Hr), !(mpz_powm_nonneg _ c p Hc). cbn [negb]. destruct fp.
      - destruct (T eq_refl) as (-> & -> & ->). now rewrite !Z.eqb_refl, (table_g_fpowm H hbits), fpowm_spec.
      - now rewrite !mpz_powm_nonneg by lia.
    Qed.

    Theorem cp_complete fp g2 h2 alpha raw c r : cp_bases fp g2 h2 -> 0 <= alpha ->
      cp_prove H G h th (powm g2 alpha p) (powm h2 alpha p) g2 h2 alpha raw fp = Some (c, r) ->
      cp_verify H hbits G h th (powm g2 alpha p) (powm h2 alpha p) g2 h2 true c r fp = Accept.
    Proof.
      intros B Ha. rewrite cp_prove_spec by assumption. cbv zeta. intros [= <- <-]. pose proof (srandomm_range raw q Hq) as Bo.
      rewrite cp_verify_spec by (assumption || apply (hash_size _ _ G WF) || apply (hash_nonneg _ _ G WF) || apply Z.mod_pos_bound, Hq).
      destruct B as (Hg2 & Hh2 & _).
      rewrite !(schnorr_identity p q Hp Hq _ alpha _ (srandomm raw q));
        try (assumption || apply (hash_nonneg _ _ G WF) || apply Z.mod_pos_bound, Hq || lia || (rewrite Zplus_mod_idemp_l; f_equal; ring)).
      now rewrite Z.eqb_refl.
    Qed.

    Lemma or_verify_spec y1 y2 g1 g2 c1 c2 r1 r2 : in_group p q y1 -> in_group p q y2 ->
      0 <= c1 < q -> 0 <= c2 < q -> 0 <= r1 < q -> 0 <= r2 < q ->
      or_verify H G h y1 y2 g1 g2 true c1 c2 r1 r2 =
        if (c1 + c2) mod q =?
           or_challenge H G h y1 y2 g1 g2 ((powm y1 c1 p * powm g1 r1 p) mod p) ((powm y2 c2 p * powm g2 r2 p) mod p)
        then Accept else Reject.
    Proof.
      intros E1 E2 B1 B2 B3 B4. unfold or_verify. fold p q.
      now rewrite !check_element_true, !(abs_below _ q), !mpz_powm_nonneg by (assumption || lia).
    Qed.

    (* the challenge of the simulated branch and the one left for the real branch add up to the hash *)
    Lemma or_split l w : ((H l mod q - w) mod q + w) mod q = H l mod q.
    Proof. rewrite Zplus_mod_idemp_l, Z.sub_add. apply Zmod_mod. Qed.

    (* the real branch is a Schnorr proof for the challenge that is left *)
    Lemma or_known b alpha c v : powm b q p = 1 -> 0 <= alpha -> 0 <= c -> 0 <= v ->
      (powm (powm b alpha p) c p * powm b ((v - (c * alpha) mod q) mod q) p) mod p = powm b v p.
    Proof.
      intros Hb Ha Hc Hv. rewrite Z.mul_comm. apply (schnorr_identity p q Hp Hq); try assumption; [apply Z.mod_pos_bound, Hq|].
      rewrite Zplus_mod_idemp_l, <- Z.add_sub_swap, Zminus_mod_idemp_r. f_equal. ring.
    Qed.

    Theorem or_complete_first y2 g1 g2 alpha raw1 raw2 raw3 c1 c2 r1 r2 :
      powm g1 q p = 1 -> powm g2 q p = 1 -> elem y2 -> 0 <= alpha ->
      or_prove_first H G h (powm g1 alpha p) y2 g1 g2 alpha raw1 raw2 raw3 = Some (c1, c2, r1, r2) ->
      or_verify H G h (powm g1 alpha p) y2 g1 g2 true c1 c2 r1 r2 = Accept.
    Proof.
      intros Hg1 Hg2 Ey2 Ha. apply elem_spec in Ey2.
      pose proof (srandomm_range raw1 q Hq). pose proof (srandomm_range raw2 q Hq). pose proof (srandomm_range raw3 q Hq).
      unfold or_prove_first. fold p q. cbv zeta.
      rewrite !(spowm_spec _ q) by (assumption || lia || apply Ey2). intros [= <- <- <- <-].
      rewrite or_verify_spec by (assumption || apply Z.mod_pos_bound, Hq || now apply in_group_pow).
      rewrite (or_known g1) by (assumption || lia || apply Z.mod_pos_bound, Hq).
      unfold or_challenge. fold p q. rewrite or_split, (Z.mod_small (srandomm raw2 q)) by assumption.
      now rewrite Z.eqb_refl.
    Qed.

    Theorem or_complete_second y1 g1 g2 alpha raw1 raw2 raw3 c1 c2 r1 r2 :
      powm g1 q p = 1 -> powm g2 q p = 1 -> elem y1 -> 0 <= alpha ->
      or_prove_second H G h y1 (powm g2 alpha p) g1 g2 alpha raw1 raw2 raw3 = Some (c1, c2, r1, r2) ->
      or_verify H G h y1 (powm g2 alpha p) g1 g2 true c1 c2 r1 r2 = Accept.
    Proof.
      intros Hg1 Hg2 Ey1 Ha. apply elem_spec in Ey1.
      pose proof (srandomm_range raw1 q Hq). pose proof (srandomm_range raw2 q Hq). pose proof (srandomm_range raw3 q Hq).
      unfold or_prove_second. fold p q. cbv zeta.
      rewrite !(spowm_spec _ q) by (assumption || lia || apply Ey1). intros [= <- <- <- <-].
      rewrite or_verify_spec by (assumption || apply Z.mod_pos_bound, Hq || now apply in_group_pow).
      rewrite (or_known g2) by (assumption || lia || apply Z.mod_pos_bound, Hq).
      unfold or_challenge. fold p q. rewrite Z.add_comm, or_split, (Z.mod_small (srandomm raw1 q)) by assumption.
      now rewrite Z.eqb_refl.
    Qed.

    (* masking, re-masking: h is a group element and th its table (the state after Finalize) *)
    Hypothesis Hh : elem h.
    Hypothesis Eth : th = precompute h q.

    Let Hhq : powm h q p = 1. Proof. apply elem_spec in Hh. apply Hh. Qed.

    Lemma mask_spec m r : 0 <= r < q -> vtmf_mask G h th m r = Some (powm g r p, (powm h r p * m) mod p).
    Proof. intros Hr. unfold vtmf_mask. fold p q g. now rewrite Eth, (table_g_fspowm H hbits), fspowm_spec. Qed.

    Theorem mask_complete m r raw c1 c2 c s : elem m -> 0 <= r < q ->
      vtmf_mask G h th m r = Some (c1, c2) ->
      mask_prove H G h th m c1 c2 r raw = Some (c, s) ->
      mask_verify H hbits G h th m c1 c2 true c s = Accept.
    Proof.
      intros Hm Hr. rewrite (mask_spec m r Hr). intros [= <- <-]. apply elem_spec in Hm.
      pose proof (in_group_pow p q Hp Hq g r Hg ltac:(lia)) as G1.
      pose proof (in_group_mul p q Hp Hq _ m (in_group_pow p q Hp Hq h r Hhq ltac:(lia)) Hm) as G2.
      destruct (in_group_inverse p q Hp Hq m Hm) as (mi & Emi & _ & Mmi).
      unfold mask_prove, mask_verify. fold p q g.
      rewrite Emi, !check_element_true, (mod_cancel p m mi _ Mmi) by (assumption || apply powm_range; lia).
      apply cp_complete; [now repeat split|lia].
    Qed.

    Lemma remask_spec c1 c2 r : 0 <= r < q ->
      remask G h th c1 c2 r = Some ((powm g r p * c1) mod p, (powm h r p * c2) mod p) /\
      remask_fast G h th c1 c2 r = Some ((powm g r p * c1) mod p, (powm h r p * c2) mod p).
    Proof.
      intros Hr. unfold remask, remask_fast. fold p q g.
      now rewrite Eth, (table_g_fspowm H hbits), (table_g_fpowm H hbits), fspowm_spec, fpowm_spec.
    Qed.

    Theorem remask_complete c1 c2 r raw d1 d2 c s : elem c1 -> elem c2 -> 0 <= r < q ->
      remask G h th c1 c2 r = Some (d1, d2) ->
      remask_prove H G h th c1 c2 d1 d2 r raw = Some (c, s) ->
      remask_verify H hbits G h th c1 c2 d1 d2 true c s = Accept.
    Proof.
      intros H1 H2 Hr. rewrite (proj1 (remask_spec c1 c2 r Hr)). intros [= <- <-]. apply elem_spec in H1, H2.
      pose proof (in_group_mul p q Hp Hq _ c1 (in_group_pow p q Hp Hq g r Hg ltac:(lia)) H1) as G1.
      pose proof (in_group_mul p q Hp Hq _ c2 (in_group_pow p q Hp Hq h r Hhq ltac:(lia)) H2) as G2.
      destruct (in_group_inverse p q Hp Hq c1 H1) as (i1 & Ei1 & _ & Mi1).
      destruct (in_group_inverse p q Hp Hq c2 H2) as (i2 & Ei2 & _ & Mi2).
      unfold remask_prove, remask_verify. fold p q g.
      rewrite Ei1, Ei2, !check_element_true, (mod_cancel p c1 i1 _ Mi1), (mod_cancel p c2 i2 _ Mi2)
        by (assumption || apply powm_range; lia).
      apply cp_complete; [now repeat split|lia].
    Qed.
  End WithKey.

  Lemma decrypt_prove_spec h th x hi fp c1 raw : in_group p q c1 -> 0 <= x ->
    decrypt_prove H G h th x hi fp c1 raw =
      match cp_prove H G h th (powm c1 x p) hi c1 g x raw false with
      | Some cr => Some (powm c1 x p, fp, cr)
      | None => None
      end.
  Proof.
    intros E1 Hx. unfold decrypt_prove. fold p g. now rewrite check_element_true, (spowm_spec c1 q) by (assumption || apply E1).
  Qed.

  Theorem decrypt_complete h th hj d c1 x fp raw di fp' c r : elem c1 -> 0 <= x ->
    map_get fp hj = Some (powm g x p) ->
    decrypt_prove H G h th x (powm g x p) fp c1 raw = Some (di, fp', (c, r)) ->
    decrypt_update H hbits G h th hj d c1 true di fp' true c r = (Accept, (d * di) mod p).
  Proof.
    intros E1 Hx Hm. apply elem_spec in E1. rewrite decrypt_prove_spec by assumption.
    destruct (cp_prove H G h th (powm c1 x p) (powm g x p) c1 g x raw false) as [[c0 r0]|] eqn:P; [|discriminate].
    intros [= <- <- <- <-]. unfold decrypt_update. fold p g.
    rewrite Hm, check_element_true by (apply in_group_pow; assumption || apply E1). cbn [negb].
    now rewrite (cp_complete h th false c1 g x raw c0 r0) by (assumption || (repeat split; assumption || apply E1 || discriminate)).
  Qed.
End Complete.
