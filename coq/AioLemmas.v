(* AioLemmas: proofs about AioModel -- fragmentation: what a receiver delivers depends only on the byte stream.
   Every Receive call takes a prefix off the stream still ahead of the receiver (its buffer, the pipe, the bytes to
   come): nothing, the IV block, or one complete record (`consumes`).  What the stream means and where the record
   boundaries lie are both followed along that relation. *)
From Coq Require Import ZArith NArith List Bool Lia.
From LT Require Import ListFacts gen_Consts CodecModel CodecLemmas AioModel.
Import ListNotations.

Lemma skipn_skipn {A} x y (l : list A) : skipn x (skipn y l) = skipn (x + y) l.
Proof.
  revert l. induction y as [|y IH]; intros l.
  - now rewrite Nat.add_0_r.
  - destruct l; [now rewrite !skipn_nil|]. rewrite Nat.add_succ_r. cbn [skipn]. apply IH.
Qed.

Lemma firstn_nil_skipn {A} n (l : list A) : firstn n l = [] -> skipn n l = l.
Proof. destruct n, l; cbn; try reflexivity; discriminate. Qed.

Lemma find_nl_split b p : find_nl b = Some p ->
  b = firstn p b ++ c_nl :: skipn (S p) b /\ Forall (fun x => x <> c_nl) (firstn p b).
Proof.
  revert p. induction b as [|c r IH]; intros p H; [discriminate|].
  cbn [find_nl] in H. destruct (N.eqb_spec c c_nl) as [->|Hc].
  - injection H as <-. cbn. split; [reflexivity|constructor].
  - destruct (find_nl r) as [q|]; [|discriminate]. injection H as <-.
    destruct (IH q eq_refl) as [E F]. cbn [firstn skipn app]. split.
    + f_equal. exact E.
    + constructor; assumption.
Qed.

Lemma find_nl_lt b p : find_nl b = Some p -> (p < length b)%nat.
Proof.
  intros H. destruct (find_nl_split _ _ H) as [E _]. apply (f_equal (@length _)) in E.
  rewrite app_length, firstn_length in E. cbn [length] in E. lia.
Qed.

Lemma find_nl_first line r : Forall (fun x => x <> c_nl) line -> find_nl (line ++ c_nl :: r) = Some (length line).
Proof.
  induction 1 as [|c l Hc _ IH]; cbn [app find_nl length].
  - now rewrite N.eqb_refl.
  - destruct (N.eqb_spec c c_nl); [contradiction|]. now rewrite IH.
Qed.

Lemma first_record_decomp ml b l t r : first_record ml b = Some (l, t, r) ->
  b = l ++ c_nl :: t ++ r /\ Forall (fun x => x <> c_nl) l /\ length t = ml.
Proof.
  unfold first_record. destruct (find_nl b) as [p|] eqn:E; [|discriminate].
  destruct (Nat.leb_spec (p + 1 + ml) (length b)) as [L|L]; [|discriminate].
  intros H. assert (El : l = firstn p b) by congruence. assert (Et : t = firstn ml (skipn (S p) b)) by congruence.
  assert (Er : r = skipn (S p + ml) b) by congruence. clear H. subst l t r.
  destruct (find_nl_split _ _ E) as [SP F]. split; [|split].
  - rewrite (Nat.add_comm (S p)), <- skipn_skipn, firstn_skipn. exact SP.
  - exact F.
  - rewrite firstn_length, skipn_length. lia.
Qed.

Lemma first_record_build ml l t r : Forall (fun x => x <> c_nl) l -> length t = ml ->
  first_record ml (l ++ c_nl :: t ++ r) = Some (l, t, r).
Proof.
  intros F <-. unfold first_record. rewrite find_nl_first by assumption.
  assert (S1 : skipn (S (length l)) (l ++ c_nl :: t ++ r) = t ++ r) by (clear F; induction l as [|a l IH]; [reflexivity|exact IH]).
  destruct (Nat.leb_spec (length l + 1 + length t) (length (l ++ c_nl :: t ++ r))) as [_|L].
  - now rewrite (Nat.add_comm (S (length l))), <- skipn_skipn, S1, !firstn_app_exact, skipn_app_exact by reflexivity.
  - rewrite app_length in L. cbn [length] in L. rewrite app_length in L. lia.
Qed.

Lemma first_record_shorter ml b l t r : first_record ml b = Some (l, t, r) -> (length r < length b)%nat.
Proof.
  intros H. destruct (first_record_decomp _ _ _ _ _ H) as (-> & _).
  rewrite app_length. cbn [length]. rewrite app_length. lia.
Qed.

Section Frag.
Variable P : prims.
Variable c : cfg.
Variable nonce : bytes.

Notation records := (stream_records P c nonce).
Notation deliveries := (stream_deliveries P c nonce).

Lemma records_fuel f1 : forall f2 k s, (length s < f1)%nat -> (length s < f2)%nat -> records f1 k s = records f2 k s.
Proof.
  induction f1 as [|f1 IH]; intros f2 k s H1 H2; [lia|].
  destruct f2 as [|f2]; [lia|]. cbn [stream_records].
  destruct (first_record (eff_maclen P c) s) as [[[l t] r]|] eqn:E; [|reflexivity].
  pose proof (first_record_shorter _ _ _ _ _ E).
  destruct (process_record P c nonce k l t) as [o k'].
  destruct o; [f_equal| |reflexivity]; apply IH; lia.
Qed.

Lemma records_step fuel k l t R o k' : Forall (fun x => x <> c_nl) l -> length t = eff_maclen P c ->
  process_record P c nonce k l t = (o, k') -> (length (l ++ c_nl :: t ++ R) < fuel)%nat ->
  records fuel k (l ++ c_nl :: t ++ R) =
  match o with Deliver m => m :: records (S (length R)) k' R | Reject => records (S (length R)) k' R | Stall => [] end.
Proof.
  intros F L PR H. destruct fuel as [|f]; [lia|]. set (n := S (length R)).
  cbn [stream_records]. rewrite (first_record_build _ _ _ R F L), PR.
  rewrite app_length in H. cbn [length] in H. rewrite app_length in H.
  destruct o; [f_equal| |reflexivity]; apply records_fuel; unfold n; lia.
Qed.

(* every leaf of open_line is a pair with Reject or Deliver in front *)
Lemma open_line_no_stall k line k' : open_line P c nonce k line <> (Stall, k').
Proof.
  unfold open_line. cbv zeta.
  repeat match goal with |- context [match ?x with _ => _ end] => destruct x end; discriminate.
Qed.

(* a Stall repeats: the MAC check depends on the sequence number only *)
Lemma process_stall k l t k' : process_record P c nonce k l t = (Stall, k') -> process_record P c nonce k' l t = (Stall, k').
Proof.
  unfold process_record. destruct (auth c); [|intros H; now apply open_line_no_stall in H].
  destruct (bytes_eqb _ t) eqn:M; [intros H; now apply open_line_no_stall in H|].
  destruct (Z.eqb_spec (k_sqn k) 1) as [|N]; [discriminate|]. intros H. injection H as <-. cbn [k_sqn].
  rewrite M. now destruct (Z.eqb_spec (k_sqn k) 1).
Qed.

(* receiver states that can occur: before the IV has been taken nothing is parsed and the buffer is short *)
Definition recv_wf (st : rstate) : Prop :=
  encr c = true -> r_iv st = false -> (length (r_buf st) < blklen P)%nat /\ r_flag st = false.

Definition delivered_by (o : option outcome) : list Z := match o with Some (Deliver m) => [m] | _ => [] end.

(* the IV block goes into the cipher history (CFB) or is only the nonce (CTR) *)
Definition take_iv (k : rcore) (x : bytes) : rcore :=
  {| k_sqn := k_sqn k; k_chunk := k_chunk k; k_bad := k_bad k;
     k_hist := if ctr_mode c then k_hist k else OpIV x :: k_hist k |}.

(* stream_deliveries looks at the state only through r_iv and core_of, and at buffer and stream only as one string *)
Definition ahead (ivd : bool) (k : rcore) (R : bytes) : list Z :=
  if encr c && negb ivd then
    if (blklen P <=? length R)%nat
    then records (S (length R)) (take_iv k (firstn (blklen P) R)) (skipn (blklen P) R) else []
  else records (S (length R)) k R.

Lemma deliveries_ahead st s : deliveries st s = ahead (r_iv st) (core_of st) (r_buf st ++ s).
Proof. reflexivity. Qed.

(* one step of a receiver with IV flag ivd and record state k on the stream R ahead of it *)
Inductive consumes (ivd : bool) (k : rcore) : bytes -> option outcome -> bool -> rcore -> bytes -> Prop :=
| c_nothing R : consumes ivd k R None ivd k R
| c_iv x R : encr c = true -> ivd = false -> length x = blklen P -> consumes ivd k (x ++ R) None true (take_iv k x) R
| c_record l t R o k' : encr c && negb ivd = false -> Forall (fun x => x <> c_nl) l -> length t = eff_maclen P c ->
    process_record P c nonce k l t = (o, k') ->
    consumes ivd k (l ++ c_nl :: t ++ R) (Some o) ivd k' (match o with Stall => l ++ c_nl :: t ++ R | _ => R end).

Lemma ahead_consumes ivd k R o ivd' k' R' : consumes ivd k R o ivd' k' R' -> ahead ivd k R = delivered_by o ++ ahead ivd' k' R'.
Proof.
  intros [R0 | x R0 E -> L | l t R0 o1 k1 D F L PR]; [reflexivity| |]; unfold ahead.
  - rewrite E. cbn [negb andb]. cbn [delivered_by app]. rewrite <- L, app_length.
    destruct (Nat.leb_spec (length x) (length x + length R0)); [|lia].
    rewrite firstn_app_exact, skipn_app_exact by reflexivity. apply records_fuel; lia.
  - rewrite D, (records_step _ _ _ _ R0 _ _ F L PR) by lia. destruct o1; try reflexivity.
    now rewrite (records_step _ _ _ _ R0 _ _ F L (process_stall _ _ _ _ PR)) by lia.
Qed.

Lemma ahead_stalled ivd k R ivd' k' R' : consumes ivd k R (Some Stall) ivd' k' R' -> ahead ivd' k' R' = [].
Proof.
  intros C. inversion C as [| |l t R0 o1 k1 D F L PR]; subst. unfold ahead. rewrite D.
  now rewrite (records_step _ _ _ _ R0 _ _ F L (process_stall _ _ _ _ PR)) by lia.
Qed.

(* a parse attempt: the first complete record of the buffer goes through process_record; a Stall leaves it buffered *)
Lemma recv_parse_spec st :
  match recv_parse P c nonce st with
  | None => first_record (eff_maclen P c) (r_buf st) = None
  | Some (o, st') => exists l t rest,
      first_record (eff_maclen P c) (r_buf st) = Some (l, t, rest) /\
      process_record P c nonce (core_of st) l t = (o, core_of st') /\ r_iv st' = r_iv st /\
      r_buf st' = match o with Stall => r_buf st | _ => rest end /\
      r_flag st' = match o, rest with Stall, _ => r_flag st | _, [] => false | _, _ => r_flag st end
  end.
Proof.
  unfold recv_parse. destruct (first_record _ _) as [[[l t] r]|]; [|reflexivity].
  destruct (process_record P c nonce (core_of st) l t) as [o [ks kc kb kh]] eqn:PR.
  destruct o; exists l, t, r; (split; [reflexivity|]); (split; [exact PR|]); repeat split.
Qed.

Lemma parse_consumes st o st' s : recv_wf st -> r_flag st = true -> recv_parse P c nonce st = Some (o, st') ->
  consumes (r_iv st) (core_of st) (r_buf st ++ s) (Some o) (r_iv st') (core_of st') (r_buf st' ++ s) /\ recv_wf st'.
Proof.
  intros W F H. pose proof (recv_parse_spec st) as S. rewrite H in S. destruct S as (l & t & r & E & PR & Iv & Hb & _).
  assert (D : encr c && negb (r_iv st) = false).
  { destruct (encr c) eqn:He, (r_iv st) eqn:I; try reflexivity. destruct (W He I) as [_ F']. congruence. }
  destruct (first_record_decomp _ _ _ _ _ E) as (B & Fl & Lt).
  assert (A : r_buf st ++ s = l ++ c_nl :: t ++ r ++ s) by (rewrite B, <- app_assoc; cbn [app]; now rewrite <- app_assoc).
  pose proof (c_record _ _ l t (r ++ s) o _ D Fl Lt PR) as C. rewrite <- A in C. rewrite Iv, Hb. split.
  - destruct o; exact C.
  - intros He Hi. rewrite Iv in Hi. rewrite He, Hi in D. discriminate.
Qed.

Lemma read_consumes st pipe st' pipe' fut : recv_wf st -> recv_read P c st pipe = (st', pipe') ->
  consumes (r_iv st) (core_of st) (r_buf st ++ pipe ++ fut) None (r_iv st') (core_of st') (r_buf st' ++ pipe' ++ fut) /\ recv_wf st'.
Proof.
  intros W H. unfold recv_read in H.
  set (room := Z.to_nat (buf_in_size - blen (r_buf st))) in *.
  assert (R : r_buf st ++ pipe ++ fut = (r_buf st ++ firstn room pipe) ++ skipn room pipe ++ fut).
  { rewrite <- (firstn_skipn room pipe) at 1. now rewrite <- !app_assoc. }
  destruct (firstn room pipe) as [|g0 gr] eqn:G.
  - injection H as <- <-. rewrite (firstn_nil_skipn _ _ G). split; [constructor|assumption].
  - set (got := g0 :: gr) in *. rewrite R. set (T := skipn room pipe ++ fut).
    destruct (encr c) eqn:E; [destruct (r_iv st) eqn:I; cbn [negb andb] in H;
      [|destruct (Nat.leb_spec (blklen P) (length (r_buf st ++ got))) as [L|L]]|]; injection H as <- <-; cbn [r_buf r_iv].
    + split; [apply c_nothing|]. intros _ Hi. discriminate.
    + split; [|intros _ Hi; discriminate].
      rewrite <- (firstn_skipn (blklen P) (r_buf st ++ got)) at 1. rewrite <- app_assoc.
      apply (c_iv _ (core_of st)); [assumption|reflexivity|]. rewrite firstn_length. lia.
    + split; [apply c_nothing|]. intros _ _. cbn [r_buf r_flag]. split; [assumption|]. now destruct (W E I).
    + split; [apply c_nothing|]. intros He. congruence.
Qed.

Lemma recv_wf_clear st : recv_wf st -> recv_wf (clear_flag st).
Proof. intros W E I. destruct (W E I) as [L _]. split; [exact L|reflexivity]. Qed.

Lemma deliveries_clear st s : deliveries (clear_flag st) s = deliveries st s.
Proof. reflexivity. Qed.

Lemma call_consumes st pipe o st' pipe' fut : recv_wf st -> recv_call P c nonce st pipe = (o, st', pipe') ->
  consumes (r_iv st) (core_of st) (r_buf st ++ pipe ++ fut) o (r_iv st') (core_of st') (r_buf st' ++ pipe' ++ fut) /\ recv_wf st'.
Proof.
  intros W H. unfold recv_call in H. destruct (r_flag st) eqn:F.
  - destruct (recv_parse P c nonce st) as [[o1 st1]|] eqn:PA.
    + injection H as <- <- <-. eapply parse_consumes; eassumption.
    + destruct (recv_read P c (clear_flag st) pipe) as [st1 p1] eqn:RD. injection H as <- <- <-.
      exact (read_consumes _ _ _ _ fut (recv_wf_clear _ W) RD).
  - destruct (recv_read P c st pipe) as [st1 p1] eqn:RD. injection H as <- <- <-.
    exact (read_consumes _ _ _ _ fut W RD).
Qed.

Lemma delivered_cons o os : delivered (o :: os) = delivered_by o ++ delivered os.
Proof. destruct o as [[m| |]|]; reflexivity. Qed.

(* fragmentation invariance: for EVERY schedule of arrivals and Receive calls, the values delivered so far followed
   by what the leftover state and pipe still mean are exactly what the concatenated byte stream means *)
Theorem frag_invariant evs : forall st pipe os st' pipe', recv_wf st ->
  run P c nonce st pipe evs = (os, st', pipe') ->
  deliveries st (pipe ++ fed evs) = delivered os ++ deliveries st' pipe' /\ recv_wf st'.
Proof.
  induction evs as [|e r IH]; intros st pipe os st' pipe' W H.
  - cbn in H. injection H as <- <- <-. cbn [fed delivered app]. rewrite app_nil_r. auto.
  - destruct e as [ch|].
    + cbn [run fed] in *. rewrite app_assoc. eapply IH; eassumption.
    + cbn [run fed] in *.
      destruct (recv_call P c nonce st pipe) as [[o st1] p1] eqn:CS.
      destruct (run P c nonce st1 p1 r) as [[os2 st2] p2] eqn:RN.
      injection H as <- <- <-.
      destruct (call_consumes _ _ _ _ _ (fed r) W CS) as [C W1].
      destruct (IH _ _ _ _ _ W1 RN) as [D2 W2]. split; [|exact W2].
      rewrite deliveries_ahead, (ahead_consumes _ _ _ _ _ _ _ C), <- deliveries_ahead, D2, delivered_cons.
      now rewrite app_assoc.
Qed.

Lemma nothing_left st : recv_wf st ->
  first_record (eff_maclen P c) (r_buf st) = None \/ (encr c = true /\ r_iv st = false) -> deliveries st [] = [].
Proof.
  intros W H. unfold stream_deliveries. rewrite app_nil_r.
  destruct (encr c) eqn:E, (r_iv st) eqn:I; cbn [andb negb stream_records].
  2: { destruct (W E I) as [L _]. destruct (Nat.leb_spec (blklen P) (length (r_buf st))); [lia|reflexivity]. }
  all: destruct H as [->|[X Y]]; [reflexivity|discriminate].
Qed.

(* a fresh receiver takes the IV block (encrypted link) and parses records from this state on *)
Definition fresh_core (x : bytes) : rcore :=
  {| k_sqn := 1; k_chunk := 0; k_bad := false; k_hist := s_hist (sstate0 c x) |}.

Lemma deliveries_fresh x s : (encr c = true -> length x = blklen P) ->
  deliveries rstate0 ((if encr c then x else []) ++ s) = records (S (length s)) (fresh_core x) s.
Proof.
  intros L. rewrite deliveries_ahead. unfold fresh_core, sstate0. cbn [rstate0 r_buf r_iv app s_hist].
  destruct (encr c) eqn:E.
  - rewrite (ahead_consumes _ _ _ _ _ _ _ (c_iv false (core_of rstate0) x s E eq_refl (L eq_refl))).
    unfold ahead, take_iv. rewrite E. cbn. now destruct (ctr_mode c).
  - unfold ahead. rewrite E. reflexivity.
Qed.

Lemma recv_wf0 : (0 < blklen P)%nat -> recv_wf rstate0.
Proof. intros B _ _. cbn. auto. Qed.

End Frag.
