(* CoinFlipNLemmas: all honest parties of the n-party coin flip output the sum of the committed shares of Qual (C17). *)
From Coq Require Import ZArith Znumtheory List Bool Lia FinFun.
From LT Require Import ListFacts gen_Consts Zbase VssModel VssLemmas VssLagrange CoinFlipArith CoinFlipModel CoinFlipLemmas CoinFlipNModel.
Import ListNotations.
Local Open Scope Z_scope.

(* every answer verifies, so the fold keeps a matching share once it holds one, and picks one up at an answer addressed to i *)
Lemma final_share_fold G i cm answers : forallb (fun a => matches G cm (fst a + 1) (snd a)) answers = true -> forall cur,
  (exists sh, cur = Some sh /\ matches G cm (i + 1) sh = true) \/ existsb (fun a => fst a =? i) answers = true ->
  exists sh, fold_left (fun cur a => if (fst a =? i) && matches G cm (fst a + 1) (snd a) then Some (snd a) else cur) answers cur = Some sh /\
             matches G cm (i + 1) sh = true.
Proof.
  induction answers as [|a r IH]; cbn [forallb fold_left existsb]; intros Hall cur H.
  - destruct H as [H|H]; [exact H|discriminate].
  - apply andb_prop in Hall as [Ha Hr]. rewrite Ha, andb_true_r. apply (IH Hr).
    destruct (Z.eqb_spec (fst a) i) as [<-|N]; [left; eauto|exact H].
Qed.

(* a qualified dealer, and either no own complaint or an answer to it: the party ends with a share that matches the
   dealer's commitments.  (Without the answer the conclusion fails: finding nparty-unanswered-complaint.) *)
Theorem final_share_matches G t i d : dealer_qualified G t d = true ->
  my_complaint G i d = false \/ answered i d = true ->
  exists sh, final_share G i d = Some sh /\ matches G (d_cm d) (i + 1) sh = true.
Proof.
  unfold dealer_qualified, final_share, answered, my_complaint. intros Q H. apply andb_prop in Q as [_ Qa].
  apply (final_share_fold G i _ _ Qa). destruct H as [H|H]; [left|now right].
  destruct (d_recv d) as [sh|]; [|discriminate]. apply negb_false_iff in H. eauto.
Qed.

(* Qual is a function of broadcast data: two parties that saw the same commitments, complaints and answers reach the same verdict *)
Theorem rvss_qual_common G t d1 d2 : d_cm d1 = d_cm d2 -> d_ncompl d1 = d_ncompl d2 -> d_answers d1 = d_answers d2 ->
  dealer_qualified G t d1 = dealer_qualified G t d2.
Proof. unfold dealer_qualified. now intros -> -> ->. Qed.

Lemma NoDup_map_filter {A B} (u : A -> B) f l : NoDup (map u l) -> NoDup (map u (filter f l)).
Proof.
  induction l as [|a l IH]; cbn [filter map]; intros H; [constructor|]. inversion H as [|? ? N H']; subst.
  destruct (f a); cbn [map]; [constructor|]; auto.
  intros Hin. apply N. apply in_map_iff in Hin as (x & <- & Hx). apply in_map, (proj1 (filter_In _ _ _) Hx).
Qed.

Section FlipN.
  Variable G : group.
  Hypothesis V : valid G.
  Variable t : Z.
  Hypothesis Ht : 0 <= t.
  Let p := gp G.
  Let q := gq G.

  (* member mb is committed to the polynomial f: at most t+1 coefficients, and every value that passes a test against
     mb's commitments lies on f.  This is the binding property of the Pedersen commitments (a violation yields log_g h,
     C17_flip2_binding_reduction); it is a hypothesis here. *)
  Definition committed (mb : member) (f : list Z) : Prop :=
    (Z.of_nat (length f) <= t + 1) /\
    (forall x sh, 0 <= x -> matches G (m_cm mb) x sh = true -> fst sh mod q = poly_eval q f x) /\
    (forall a b, Z.abs a < q -> Z.abs b < q -> opens G (o_C (m_open mb) mod p) a b -> a mod q = poly_eval q f 0).

  (* party i's own share of mb's polynomial is right (final_share_matches), and the indices are admissible *)
  Definition view_ok (i : Z) (mb : member) (f : list Z) : Prop :=
    fst (m_own mb) mod q = poly_eval q f (i + 1) /\ 0 <= i /\ i + 1 < q /\
    NoDup (map fst (m_shares mb)) /\ Forall (fun ks => 0 <= fst ks /\ fst ks + 1 < q) (m_shares mb).

  Lemma valid_q_pos : 0 < q. Proof. pose proof (valid_q G V). unfold q. lia. Qed.

  Lemma recon_value i targets mb f pts v : committed mb f -> view_ok i mb f ->
    recon_points G t i targets mb = Some pts -> lagrange0 q pts = Some v -> v = poly_eval q f 0.
  Proof.
    intros (Hlen & Hbind & _) (Hown & Hi0 & Hiq & Hnd & Hrng) E L. assert (Pq : prime q) by apply V. pose proof valid_q_pos as Hq0.
    unfold recon_points in E.
    set (good := filter (fun ks => negb (existsb (Z.eqb (fst ks)) targets) && negb (fst ks =? i) && matches G (m_cm mb) (fst ks + 1) (snd ks)) (m_shares mb)) in E.
    set (all := (i + 1, fst (m_own mb)) :: map (fun ks => (fst ks + 1, fst (snd ks))) good) in E.
    destruct (Z.leb_spec (Z.of_nat (length all)) t) as [|Hall]; [discriminate|]. injection E as <-.
    assert (Hgood : forall ks, In ks good -> In ks (m_shares mb) /\ fst ks <> i /\ matches G (m_cm mb) (fst ks + 1) (snd ks) = true).
    { intros ks Hk. unfold good in Hk. apply filter_In in Hk. destruct Hk as [H1 H2].
      apply andb_prop in H2 as [H2 H3]. apply andb_prop in H2 as [_ H2]. apply negb_true_iff, Z.eqb_neq in H2. auto. }
    assert (NDall : NoDup (map fst all)).
    { unfold all. cbn [map fst]. rewrite map_map. cbn [fst]. rewrite <- (map_map fst (fun z => z + 1)). constructor.
      - intros Hin. apply in_map_iff in Hin as (z & E1 & Hz). apply in_map_iff in Hz as (ks & <- & Hk).
        destruct (Hgood ks Hk) as (_ & N & _). lia.
      - apply Injective_map_NoDup; [intros z1 z2; lia|]. now apply NoDup_map_filter. }
    apply (lagrange0_sound q f (firstn (Z.to_nat (t + 1)) all) v Pq); try exact L.
    - rewrite firstn_length. apply Nat2Z.inj_le. rewrite Nat2Z.inj_min. rewrite Z2Nat.id by lia. lia.
    - assert (E : map fst (firstn (Z.to_nat (t + 1)) all) = firstn (Z.to_nat (t + 1)) (map fst all)) by (symmetry; apply firstn_map).
      rewrite E. now apply NoDup_firstn.
    - intros x y Hin. apply In_firstn in Hin. unfold all in Hin. destruct Hin as [[= <- <-]|Hin].
      + split; [lia|exact Hown].
      + apply in_map_iff in Hin. destruct Hin as (ks & [= <- <-] & Hk). destruct (Hgood ks Hk) as (Hm & _ & Hmt).
        rewrite Forall_forall in Hrng. destruct (Hrng ks Hm). split; [lia|]. apply (Hbind (fst ks + 1) (snd ks)); [lia|exact Hmt].
  Qed.

  Lemma member_value i targets mb f v : committed mb f -> view_ok i mb f ->
    flipN_member_value G t i targets mb = Some v -> v mod q = poly_eval q f 0.
  Proof.
    intros C W E. pose proof valid_q_pos as Hq0. unfold flipN_member_value in E.
    destruct (flipN_complaint G (m_open mb)) as [[|]|] eqn:FC; try discriminate.
    - destruct (recon_points G t i targets mb) as [pts|] eqn:RP; [|discriminate].
      rewrite (recon_value i targets mb f pts v C W RP E). apply Z.mod_small. apply poly_eval_range. lia.
    - injection E as <-. apply (flipN_no_complaint G _ V) in FC as (a & b & _ & _ & Ra & Rb & O & ->).
      destruct C as (_ & _ & Hop). now apply (Hop a b).
  Qed.

  (* the chain from Share to Flip: the share a party holds after the resolution phase lies on the dealer's committed polynomial *)
  Theorem own_share_committed i d mb f : m_cm mb = d_cm d -> committed mb f -> 0 <= i ->
    dealer_qualified G t d = true -> my_complaint G i d = false \/ answered i d = true ->
    exists sh, final_share G i d = Some sh /\ fst sh mod q = poly_eval q f (i + 1).
  Proof.
    intros Ecm (_ & Hbind & _) Hi Q A. destruct (final_share_matches G t i d Q A) as (sh & E & M).
    exists sh. split; [exact E|]. apply Hbind; [lia|]. now rewrite Ecm.
  Qed.

  (* the coin a party computes from its view is the sum of the committed shares of the members of Qual *)
  Theorem flipN_party_sum i mbs fs c : Forall2 (fun mb f => committed mb f /\ view_ok i mb f) mbs fs ->
    flipN_party G t i mbs = Some c ->
    c = (fold_right Z.add 0 (map (fun f => poly_eval q f 0) fs)) mod q.
  Proof.
    intros HF E. pose proof valid_q_pos as Hq0. unfold flipN_party in E.
    destruct (flipN_targets G mbs) as [targets|]; [|discriminate].
    destruct (Z.of_nat (length targets) >? t); [discriminate|].
    destruct (forallb _ _) eqn:FA; [|discriminate]. injection E as <-.
    fold q. rewrite flipN_sum_spec by lia.
    clear - HF FA Hq0 V Ht. revert FA. induction HF as [|mb f mbs' fs' [C W] _ IH]; intros FA; [reflexivity|].
    cbn [map forallb fold_right] in *. apply andb_prop in FA as [F1 F2].
    destruct (flipN_member_value G t i targets mb) as [v|] eqn:MV; [|discriminate].
    pose proof (member_value i targets mb f v C W MV) as Hv.
    now rewrite <- Hv, Zplus_mod_idemp_l, <- Zplus_mod_idemp_r, (IH F2), Zplus_mod_idemp_r.
  Qed.

  (* all honest parties output the same value: two parties with (possibly different) views of the same members of Qual,
     each with correct own shares, obtain the same coin, equal to the sum of the committed shares modulo q *)
  Theorem flipN_common i i' mbs mbs' fs c c' :
    Forall2 (fun mb f => committed mb f /\ view_ok i mb f) mbs fs ->
    Forall2 (fun mb f => committed mb f /\ view_ok i' mb f) mbs' fs ->
    flipN_party G t i mbs = Some c -> flipN_party G t i' mbs' = Some c' ->
    c = c' /\ c = (fold_right Z.add 0 (map (fun f => poly_eval q f 0) fs)) mod q /\ 0 <= c < q.
  Proof.
    intros H1 H2 E1 E2. pose proof valid_q_pos as Hq0.
    rewrite (flipN_party_sum i mbs fs c H1 E1), (flipN_party_sum i' mbs' fs c' H2 E2).
    repeat split; try reflexivity; apply Z.mod_pos_bound; lia.
  Qed.
End FlipN.

(* the complaint list handed to Reconstruct is sorted and duplicate-free whatever the arrival order *)
Inductive sorted : list Z -> Prop :=
| sorted_nil : sorted []
| sorted_one x : sorted [x]
| sorted_cons x y r : x <= y -> sorted (y :: r) -> sorted (x :: y :: r).

Lemma ins_sorted_in x l z : In z (ins_sorted x l) <-> z = x \/ In z l.
Proof.
  induction l as [|y r IH]; cbn [ins_sorted]; [cbn; intuition|].
  destruct (x <=? y); cbn [In]; [intuition|]. rewrite IH. intuition.
Qed.
Lemma ins_sorted_sorted x l : sorted l -> sorted (ins_sorted x l).
Proof.
  induction 1 as [|y|y z r Hyz Hs IH]; cbn [ins_sorted].
  - constructor.
  - destruct (Z.leb_spec x y); repeat constructor; lia.
  - destruct (Z.leb_spec x y); [repeat constructor; assumption || lia|].
    cbn [ins_sorted] in IH. destruct (Z.leb_spec x z); constructor; try lia; try assumption.
Qed.
Lemma sort_z_in l z : In z (sort_z l) <-> In z l.
Proof. induction l as [|x r IH]; cbn [sort_z fold_right]; [reflexivity|]. fold (sort_z r). rewrite ins_sorted_in, IH. cbn. intuition. Qed.
Lemma sort_z_sorted l : sorted (sort_z l).
Proof. induction l as [|x r IH]; cbn [sort_z fold_right]; [constructor|]. now apply ins_sorted_sorted. Qed.

Lemma uniq_adj_in l z : In z (uniq_adj l) <-> In z l.
Proof.
  induction l as [|x r IH]; [reflexivity|]. cbn [uniq_adj]. destruct r as [|y r']; [reflexivity|].
  destruct (Z.eqb_spec x y) as [->|N].
  - rewrite IH. cbn [In]. intuition.
  - cbn [In] in *. rewrite IH. reflexivity.
Qed.
Lemma sorted_head_le x l z : sorted (x :: l) -> In z l -> x <= z.
Proof.
  revert x. induction l as [|y r IH]; intros x H Hin; [contradiction|]. inversion H; subst.
  destruct Hin as [<-|Hin]; [assumption|]. specialize (IH y H4 Hin). lia.
Qed.
Lemma sorted_cons_le x l : (forall z, In z l -> x <= z) -> sorted l -> sorted (x :: l).
Proof. destruct l; constructor; auto. apply H. now left. Qed.

(* on a sorted list the survivors of std::unique are strictly above their predecessors *)
Lemma uniq_adj_sorted_nodup l : sorted l -> NoDup (uniq_adj l) /\ sorted (uniq_adj l).
Proof.
  induction l as [|x r IH]; intros Hs; [repeat constructor|].
  cbn [uniq_adj]. destruct r as [|y r']; [repeat constructor; intros []|].
  inversion Hs as [| |? ? ? Hxy Hs']; subst.
  destruct (IH Hs') as [ND SO]. destruct (Z.eqb_spec x y) as [->|N]; [auto|].
  assert (LT : forall z, In z (uniq_adj (y :: r')) -> x < z).
  { intros z Hz. apply (proj1 (uniq_adj_in _ _)) in Hz.
    destruct Hz as [<-|Hz]; [lia|]. pose proof (sorted_head_le y r' z Hs' Hz). lia. }
  split; [constructor; [intros Hin; specialize (LT x Hin); lia|assumption]|].
  apply sorted_cons_le; [|assumption]. intros z Hz. specialize (LT z Hz). lia.
Qed.

Theorem complaint_set_spec raw : NoDup (complaint_set raw) /\ sorted (complaint_set raw) /\ forall z, In z (complaint_set raw) <-> In z raw.
Proof.
  unfold complaint_set. destruct (uniq_adj_sorted_nodup (sort_z raw) (sort_z_sorted raw)) as (ND & SO).
  repeat split; try assumption; intros H; [apply sort_z_in, uniq_adj_in; exact H|apply uniq_adj_in, sort_z_in; exact H].
Qed.

(* with at most t distinct members complained about, the list never exceeds t, however often each was pushed *)
Theorem complaint_set_bound raw targets : (forall z, In z raw -> In z targets) -> (length (complaint_set raw) <= length targets)%nat.
Proof.
  intros H. destruct (complaint_set_spec raw) as (ND & _ & I). apply NoDup_incl_length; [assumption|].
  intros z Hz. apply H. now apply I.
Qed.
