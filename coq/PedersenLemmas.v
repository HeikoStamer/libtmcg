(* PedersenLemmas (C03): Commit = CommitBy (with and without timing protection) = h^r * prod g_i^{m_i} for every number of
   messages, i.e. on both sides of the table limit TMCG_MAX_FPOWM_N, and Verify accepts it. *)
From Coq Require Import ZArith Znumtheory Lia List Bool ZifyBool.
From LT Require Import Zbase gen_Consts SigmaPrim SigmaArith PedersenModel.
Import ListNotations.
Local Open Scope Z_scope.

Record wf_pcom (C : pcom) : Prop := mkWfP {
  wp_p : 1 < pc_p C;
  wp_odd : Z.odd (pc_p C) = true;
  wp_q : 0 < pc_q C;
  wp_t : sizeinbase2 (pc_q C) <= TMCG_MAX_FPOWM_T;
  wp_h : powm (pc_h C) (pc_q C) (pc_p C) = 1;
  wp_g : Forall (fun gi => powm gi (pc_q C) (pc_p C) = 1) (pc_g C)
}.

Definition msgs_ok (q : Z) (ms : list Z) : Prop := Forall (fun m => 0 <= m < q) ms.

Section P.
  Variable C : pcom.
  Hypothesis WF : wf_pcom C.
  Let p := pc_p C.
  Let q := pc_q C.
  Let Hp : 1 < p := wp_p _ WF.
  Let Hodd : Z.odd p = true := wp_odd _ WF.
  Let Hq : 0 < q := wp_q _ WF.
  Let Ht : sizeinbase2 q <= TMCG_MAX_FPOWM_T := wp_t _ WF.

  (* all four ways of computing g_i^m agree with powm: table or no table, protection or not *)
  Lemma gen_pow_spec prot idx gi m : powm gi q p = 1 -> 0 <= m < q -> gen_pow prot idx gi m p q = Some (powm gi m p).
  Proof.
    intros Hg Hm. unfold gen_pow. destruct (Z.of_nat idx <? TMCG_MAX_FPOWM_N); destruct prot.
    - now apply fspowm_spec.
    - now apply fpowm_spec.
    - apply (spowm_spec gi q m p); try assumption; lia.
    - apply mpz_powm_nonneg. lia.
  Qed.

  Lemma h_pow_spec prot r : 0 <= r < q -> h_pow prot C r = Some (powm (pc_h C) r p).
  Proof.
    intros Hr. unfold h_pow. fold p q. destruct prot.
    - apply fspowm_spec; try assumption. exact (wp_h _ WF).
    - now apply fpowm_spec.
  Qed.

  (* the loop from any accumulator that is a residue mod p *)
  Lemma commit_loop_from prot : forall ms gs idx acc, 0 <= acc < p ->
    Forall (fun gi => powm gi q p = 1) gs -> msgs_ok q ms -> (length ms <= length gs)%nat ->
    commit_loop prot idx gs ms acc p q = Some ((acc * gen_prod gs ms p) mod p).
  Proof.
    induction ms as [|m ms IH]; intros gs idx acc Ha Hg Hm Hl.
    - cbn [commit_loop]. destruct gs; cbn [gen_prod]; now rewrite Z.mul_1_r, Z.mod_small.
    - destruct gs as [|gi gs]; [exfalso; simpl in Hl; inversion Hl|].
      inversion Hg as [|? ? Hgi Hgs]; subst. inversion Hm as [|? ? Hmi Hms]; subst.
      cbn [commit_loop gen_prod]. rewrite (gen_pow_spec prot idx gi m Hgi Hmi).
      cbn [length] in Hl.
      rewrite IH; [|apply Z.mod_pos_bound; lia|assumption|assumption|lia].
      rewrite Zmult_mod_idemp_l. f_equal. f_equal. ring.
  Qed.

  Lemma commit_loop_spec prot r ms : 0 <= r -> msgs_ok q ms -> (length ms <= length (pc_g C))%nat ->
    commit_loop prot 0 (pc_g C) ms (powm (pc_h C) r p) p q = Some (commitment C r ms).
  Proof. intros Hr Hm Hl. apply commit_loop_from; try assumption; [apply powm_range; lia|exact (wp_g _ WF)]. Qed.

  (* CommitBy, both settings of TimingAttackProtection, every number of messages *)
  Theorem commit_by_spec r ms prot : 0 <= r < q -> msgs_ok q ms -> (length ms <= length (pc_g C))%nat ->
    commit_by C r ms prot = Some (commitment C r ms).
  Proof.
    intros Hr Hm Hl. unfold commit_by. fold p q. rewrite (proj2 (Nat.ltb_ge _ _) Hl), (h_pow_spec prot r Hr).
    destruct (q <=? r) eqn:E; [lia|]. apply commit_loop_spec; assumption || lia.
  Qed.

  Theorem commit_spec raw ms : msgs_ok q ms -> (length ms <= length (pc_g C))%nat ->
    commit C raw ms = Some (commitment C (raw mod q) ms, raw mod q).
  Proof.
    intros Hm Hl. unfold commit. fold p q. pose proof (srandomm_range raw q Hq) as Hr.
    now rewrite (proj2 (Nat.ltb_ge _ _) Hl), (h_pow_spec true _ Hr), commit_loop_spec by (assumption || lia).
  Qed.

  Corollary commit_eq_commit_by raw ms prot : msgs_ok q ms -> (length ms <= length (pc_g C))%nat ->
    exists c, commit C raw ms = Some (c, raw mod q) /\ commit_by C (raw mod q) ms prot = Some c.
  Proof.
    intros Hm Hl. exists (commitment C (raw mod q) ms). split; [now apply commit_spec|].
    apply commit_by_spec; try assumption. apply Z.mod_pos_bound. exact Hq.
  Qed.

  (* the commitment is a group element: every factor is a power of an element of order dividing q *)
  Lemma gen_prod_member : forall gs ms, Forall (fun gi => powm gi q p = 1) gs -> Forall (fun m => 0 <= m) ms ->
    in_group p q (gen_prod gs ms p mod p).
  Proof.
    induction gs as [|gi gs IH]; intros ms Hg Hm; [|destruct ms as [|m ms]]; cbn [gen_prod];
      try (rewrite Z.mod_1_l by lia; now apply in_group_1).
    inversion Hg; subst. inversion Hm; subst. rewrite <- Zmult_mod_idemp_r.
    apply in_group_mul; [assumption..|now apply in_group_pow|now apply IH].
  Qed.

  (* h^r is the first factor of the product *)
  Lemma commitment_gen_prod r ms : commitment C r ms = gen_prod (pc_h C :: pc_g C) (r :: ms) p mod p.
  Proof. reflexivity. Qed.

  Lemma commitment_member r ms : 0 <= r -> msgs_ok q ms -> in_group p q (commitment C r ms).
  Proof.
    intros Hr Hm. rewrite commitment_gen_prod. apply gen_prod_member; constructor;
      [exact (wp_h _ WF)|exact (wp_g _ WF)|assumption|]. revert Hm. apply Forall_impl. lia.
  Qed.

  (* completeness: Verify accepts what Commit / CommitBy produced *)
  Theorem verify_commit r ms : 0 <= r < q -> msgs_ok q ms -> (length ms <= length (pc_g C))%nat ->
    pverify C (commitment C r ms) r ms = Accept.
  Proof.
    intros Hr Hm Hl. destruct (commitment_member r ms ltac:(lia) Hm) as [B _]. unfold pverify. fold p q.
    rewrite (proj2 (Nat.ltb_ge _ _) Hl), (h_pow_spec false r Hr), commit_loop_spec, Z.eqb_refl by (assumption || lia).
    destruct (r <? 0) eqn:E0; [lia|]. destruct (q <=? r) eqn:E; [lia|].
    destruct (commitment C r ms <=? 0) eqn:E1; [lia|]. now destruct (p <=? commitment C r ms) eqn:E2; [lia|].
  Qed.
End P.
