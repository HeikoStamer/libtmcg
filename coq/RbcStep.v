(* RbcStep: what one received message does to the protocol state of a party (C14): filters, echo/ready counters, dbar, mbar,
   messages sent, deliveries -- the local facts the network invariants of RbcBracha.v are built from. *)
From Coq Require Import ZArith List Bool Lia.
From LT Require Import RbcModel RbcLemmas.
Import ListNotations.
Local Open Scope Z_scope.

Lemma updT_other : forall A (f : tagT -> A) k v x, x <> k -> updT f k v x = f x.
Proof. intros. unfold updT. destruct (tag_eqb x k) eqn:E; auto. apply tag_eqb_eq in E. congruence. Qed.
Lemma in_to_all : forall n d x m, In (d, x) (to_all n m) -> x = m.
Proof. intros n d x m I. unfold to_all in I. apply in_map_iff in I. destruct I as (i & E & _). congruence. Qed.

(* membership in the messages sent by a case of the handler *)
Ltac in_out I :=
  first [ apply in_to_all in I
        | apply in_map_iff in I; destruct I as (? & I & ?); inversion I
        | destruct I as [I|[]]; inversion I
        | destruct I ].

Section Step.
Variables (n t : Z) (H : Z -> Z) (toolong : tagT -> Z -> bool).
Notation handle := (handle n t H toolong).

Lemma handle_filt_inv : forall me st l m st' out r, handle me st l m = (st', out, r) ->
  forall k l' tg, filt st' k l' tg = true ->
  filt st k l' tg = true \/
  (l' = l /\ tg = mtag m /\ k <> FRetrieve /\ (k = FSend -> m_act m = 1) /\ (k = FEcho -> m_act m = 2) /\ (k = FReady -> m_act m = 3)).
Proof.
  intros me st l m st' out r HH k' l' tg F. apply handle_inv in HH. destruct HH; proj; auto;
  apply fset_inv in F; destruct F as [F|(-> & -> & ->)]; auto; right; repeat split; try discriminate; auto.
  all: intros ->; cbn in R; tauto.
Qed.

(* a tag is "validated" at a party: fetched by the out-of-order handler, or its agreed digest is known and the stored
   payload (if any) hashes to it (the digest 0 stands for "no payload" in the code: excluded globally) *)
Definition retrieved (st : pst) (tg : tagT) : Prop := exists l, filt st FRetrieve l tg = true.
Definition valid (st : pst) (tg : tagT) : Prop :=
  retrieved st tg \/
  exists d, dbar st tg = Some d /\ match mbar st tg with Some v => H v = d \/ d = 0 | None => d = 0 end.

Variable skip : Z.
Notation deliver := (deliver n t skip H toolong).

Definition pstep (st st' : pst) (out : list (Z * msg)) (r : dres) (offer : option (Z * msg)) : Prop :=
  (forall k l tg, filt st k l tg = true -> filt st' k l tg = true) /\
  (forall tg d, ed st' tg d = ed st tg d \/
     exists l m, offer = Some (l, m) /\ tg = mtag m /\ d = m_pay m /\ m_act m = 2 /\ filt st FEcho l tg = false /\
                 ed st' tg d = ed st tg d + 1 /\ filt st' FEcho l tg = true) /\
  (forall tg d, rd st' tg d = rd st tg d \/
     exists l m, offer = Some (l, m) /\ tg = mtag m /\ d = m_pay m /\ m_act m = 3 /\ filt st FReady l tg = false /\
                 rd st' tg d = rd st tg d + 1 /\ filt st' FReady l tg = true) /\
  (forall tg, dbar st' tg = dbar st tg \/ (dbar st tg = None /\ exists d, dbar st' tg = Some d /\ rd st' tg d = 2 * t + 1)) /\
  (forall tg, mbar st' tg = mbar st tg \/ mbar st tg = None \/
              (exists v, mbar st' tg = Some v /\ dbar st' tg = Some (H v)) \/ retrieved st' tg) /\
  (forall dst x, In (dst, x) out -> m_act x <> 1 /\
     (m_act x = 2 -> exists l m, offer = Some (l, m) /\ mtag x = mtag m /\ m_act m = 1 /\ m_j m = l /\
                                 filt st FSend l (mtag m) = false /\ filt st' FSend l (mtag m) = true /\ m_pay x = H (m_pay m)) /\
     (m_act x = 3 -> n - t <= ed st' (mtag x) (m_pay x) \/ t + 1 <= rd st' (mtag x) (m_pay x))) /\
  (forall who tg v, r = RDeliver who tg v -> mbar st' tg = Some v /\ (valid st' tg \/ In tg (dbuf st))) /\
  (forall tg, In tg (dbuf st') -> In tg (dbuf st) \/ valid st' tg).

Definition no_rsend (out : list (Z * msg)) : Prop := forall dst x, In (dst, x) out -> m_act x <> 1.

Lemma pstep_no_rsend : forall st st' out r off, pstep st st' out r off -> no_rsend out.
Proof. intros st st' out r off (_ & _ & _ & _ & _ & S & _) dst x I. destruct (S _ _ I) as [N _]. exact N. Qed.

Lemma pstep_idle : forall st off, pstep st st [] RNone off.
Proof. intros st off. unfold pstep. repeat split; auto; try discriminate; contradiction. Qed.

(* the counter cnt moves by one exactly when the first message of kind a for (tg, d) from a peer l is processed *)
Definition counts (cnt : pst -> tagT -> Z -> Z) (k : fkind) (a : Z) (st st' : pst) (offer : option (Z * msg)) : Prop :=
  forall tg d, cnt st' tg d = cnt st tg d \/
    exists l m, offer = Some (l, m) /\ tg = mtag m /\ d = m_pay m /\ m_act m = a /\ filt st k l tg = false /\
                cnt st' tg d = cnt st tg d + 1 /\ filt st' k l tg = true.

(* the step of one party as the invariants of RbcBracha.v see it: the part of pstep that also holds of Broadcast and of
   the channel switches (no clause about validated tags, and r-send messages may go out) *)
Definition qstep (st st' : pst) (out : list (Z * msg)) (offer : option (Z * msg)) : Prop :=
  (forall k l tg, filt st k l tg = true -> filt st' k l tg = true) /\
  counts ed FEcho 2 st st' offer /\ counts rd FReady 3 st st' offer /\
  (forall tg, dbar st' tg = dbar st tg \/ (dbar st tg = None /\ exists d, dbar st' tg = Some d /\ rd st' tg d = 2 * t + 1)) /\
  (forall dst x, In (dst, x) out ->
     (m_act x = 2 -> exists l m, offer = Some (l, m) /\ mtag x = mtag m /\ m_act m = 1 /\ m_j m = l /\
                                 filt st FSend l (mtag m) = false /\ filt st' FSend l (mtag m) = true /\ m_pay x = H (m_pay m)) /\
     (m_act x = 3 -> n - t <= ed st' (mtag x) (m_pay x) \/ t + 1 <= rd st' (mtag x) (m_pay x))).

Lemma pstep_qstep : forall st st' out r off, pstep st st' out r off -> qstep st st' out off.
Proof.
  intros st st' out r off (A & B & C & D & _ & F & _). split; [exact A|]. split; [exact B|]. split; [exact C|]. split; [exact D|].
  intros dst x J. destruct (F _ _ J) as (_ & X). exact X.
Qed.

Lemma qstep_same : forall st st' out, same_proto st st' -> (forall dst x, In (dst, x) out -> m_act x = 1) ->
  qstep st st' out None.
Proof.
  intros st st' out (E1 & E2 & E3 & E4 & _) A. unfold qstep, counts. rewrite E1, E2, E3, E4.
  split; [auto|]. split; [auto|]. split; [auto|]. split; [auto|]. intros dst x I. apply A in I. split; intros; lia.
Qed.

Lemma handle_pstep : forall me st l m st' out r, handle me st l m = (st', out, r) -> pstep st st' out r (Some (l, m)).
Proof.
  intros me st l m st' out r HH. apply handle_inv in HH. unfold pstep. repeat apply conj.
  - intros k' l' tg F. destruct HH; proj; auto; apply fset_mono; auto.
  - intros tg d. destruct HH; proj; auto;
    destruct (upd2_bump (ed st) (mtag m) (m_pay m) tg d) as [->|(-> & -> & ->)]; auto;
    right; exists l, m; repeat split; auto; apply fset_same.
  - intros tg d. destruct HH; proj; auto;
    destruct (upd2_bump (rd st) (mtag m) (m_pay m) tg d) as [->|(-> & -> & ->)]; auto;
    right; exists l, m; repeat split; auto; apply fset_same.
  - (* the digest is fixed by the (2t+1)-th r-ready *)
    intros tg. destruct HH; proj; auto;
    destruct (fixes_cases _ _ _ _ _ Db tg) as [E|(-> & E0 & E1)]; auto; right; split; auto;
    exists (m_pay m); rewrite upd2_same; split; auto; lia.
  - (* a payload is stored on r-send (first payload), on r-answer (matching the digest) or by the out-of-order handler *)
    intros tg. destruct HH; proj; auto.
    + (* HSend *) destruct (fixes_cases _ _ _ _ _ Mb tg) as [E|(-> & E0 & E1)]; auto.
    + (* HAnswerDeliver *) destruct (updT_cases _ (mbar st) (mtag m) (Some (m_pay m)) tg) as [->|(-> & ->)]; auto; right; right; left; eauto.
    + (* HAnswerBuffer *) destruct (updT_cases _ (mbar st) (mtag m) (Some (m_pay m)) tg) as [->|(-> & ->)]; auto; right; right; left; eauto.
    + (* HAgreeDeliver *) destruct (updT_cases _ (mbar st) (mtag m) (Some x) tg) as [->|(-> & ->)]; auto.
      right; right; right. exists l. apply fset_mono. exact Rt.
    + (* HAgreeBuffer *) destruct (updT_cases _ (mbar st) (mtag m) (Some x) tg) as [->|(-> & ->)]; auto.
      right; right; right. exists l. apply fset_mono. exact Rt.
  - (* r-echo answers the first r-send of the sender itself; r-ready needs n-t echoes or t+1 readys *)
    intros dst xm I. destruct HH; proj; in_out I; subst; cbn [mtag m_id m_j m_s m_act m_pay]; repeat split; intros; try discriminate.
    + (* HSend *) exists (m_j m), m. repeat split; auto. apply fset_same.
    + (* HEcho *) left. rewrite upd2_same. lia.
    + (* HReady *) right. rewrite upd2_same. lia.
  - intros who tg w Er. destruct HH; try discriminate Er; inversion Er; subst; proj; rewrite ?updT_same; (split; [auto|]);
    left; unfold valid, retrieved; proj; rewrite ?updT_same.
    + (* HReadyDeliver *) right. exists (m_pay m). split; [apply Db|]. rewrite Mb in *. auto.
    + (* HAnswerDeliver *) right. exists (H (m_pay m)). auto.
    + (* HAgreeDeliver *) left. exists l. apply fset_mono. exact Rt.
  - intros tg I. destruct HH; proj; auto; apply in_app_or in I; destruct I as [I|[<-|[]]]; auto;
    right; unfold valid, retrieved; proj; rewrite ?updT_same.
    + (* HReadyBuffer *) right. exists (m_pay m). split; [apply Db|]. rewrite <- Hm. destruct (mbar st (mtag m)); auto.
    + (* HAnswerBuffer *) right. exists (H (m_pay m)). auto.
    + (* HAgreeBuffer *) left. exists l. apply fset_mono. exact Rt.
Qed.

(* the deliver-buffer phase before the message is handled *)
Lemma pstep_buffer : forall me st st1 sent1 st2 out r off, buffer_phase n skip me st = (st1, sent1) ->
  pstep st1 st2 out r off -> pstep st st2 (sent1 ++ out) r off.
Proof.
  intros me st st1 sent1 st2 out r off BP (X1 & X2 & X3 & X4 & X5 & X6 & X7 & X8).
  apply buffer_phase_spec in BP. destruct BP as ((_ & Mb & Db & Ed & Rd & _ & Fm & _) & _ & A6 & BD).
  assert (Fneg : forall k l0 tg, filt st1 k l0 tg = false -> filt st k l0 tg = false).
  { intros k l0 tg E. destruct (filt st k l0 tg) eqn:Y; auto. apply Fm in Y. congruence. }
  assert (Sub : forall tg, In tg (dbuf st1) -> In tg (dbuf st)).
  { rewrite BD. apply incl_filter. }
  unfold pstep. rewrite Ed, Rd, Db, Mb in *. repeat apply conj; auto.
  - intros tg d. destruct (X2 tg d) as [E|(l & m & -> & -> & -> & A & B & C & D)]; auto. right. exists l, m. repeat split; auto.
  - intros tg d. destruct (X3 tg d) as [E|(l & m & -> & -> & -> & A & B & C & D)]; auto. right. exists l, m. repeat split; auto.
  - intros dst x I. apply (act6_or_later _ _ _ _ A6) in I. destruct I as [E|I].
    + repeat split; intros; lia.
    + apply X6 in I. destruct I as (N1 & I2 & I3). repeat split; auto.
      intros A2. destruct (I2 A2) as (l & m & -> & a & b & c & d & e & f). exists l, m. repeat split; auto.
  - intros who tg v E. apply X7 in E. destruct E as (E & [V|V]); auto.
  - intros tg I. apply X8 in I. destruct I as [I|V]; auto.
Qed.

Lemma deliver_pstep : forall me st offer,
  let o := deliver me st offer in pstep st (o_st o) (o_sent o) (o_res o) offer.
Proof.
  intros me st offer. destruct (deliver_inv n t skip H toolong me st offer); cbv zeta; cbn [o_st o_sent o_res].
  - unfold pstep. repeat apply conj; auto; try discriminate. intros ? ? [].
  - unfold pstep; proj. repeat apply conj; auto.
    + intros ? ? [].
    + intros who0 tg w E. inversion E; subst. split; [exact M|]. right. rewrite B. apply in_elt.
    + intros tg I. left. rewrite B. apply in_app_or in I. apply in_or_app. destruct I; [left|right; right]; auto.
  - rewrite <- (app_nil_r sent1). eapply pstep_buffer; eauto.
    unfold pstep. repeat apply conj; auto; try discriminate. intros ? ? [].
  - eapply pstep_buffer; eauto. eapply handle_pstep; exact HH.
Qed.

End Step.
