(* AioRoundtrip: proofs about AioModel -- an honestly produced record is opened to the value that was sent. *)
From Coq Require Import ZArith NArith List Bool Lia.
From LT Require Import gen_Consts CodecModel CodecLemmas AioModel AioLemmas.
Import ListNotations.

Local Open Scope N_scope.

Lemma peel_digits b : 2 <= b -> forall ds a acc fuel, Forall (fun d => d < b) ds -> a <> 0 ->
  to_digits_fuel b (length ds + fuel) (fold_left (dstep b) ds a) acc = to_digits_fuel b fuel a (ds ++ acc).
Proof.
  intros Hb ds. induction ds as [|d r IH] using rev_ind; intros a acc fuel F Ha.
  - reflexivity.
  - apply Forall_app in F. destruct F as [Fr Fd]. inversion Fd; subst.
    rewrite last_length. cbn [Nat.add].
    rewrite fold_dstep_snoc. cbn [to_digits_fuel].
    pose proof (fold_dstep_range b r ltac:(lia) Fr a) as [G _]. set (v := fold_left (dstep b) r a) in *.
    assert (0 < b ^ N.of_nat (length r)) by (apply N.neq_0_lt_0, N.pow_nonzero; lia).
    destruct (N.eqb_spec (v * b + d) 0) as [Z|_]; [nia|].
    replace ((v * b + d) / b) with v by (apply N.div_unique with d; lia).
    replace ((v * b + d) mod b) with d by (apply N.mod_unique with v; lia).
    unfold v. rewrite IH by assumption. now rewrite <- app_assoc.
Qed.

Lemma to_from_digits b d0 r : 2 <= b -> d0 <> 0 -> Forall (fun d => d < b) (d0 :: r) ->
  to_digits b (from_digits b (d0 :: r)) = d0 :: r.
Proof.
  intros Hb H0 F. inversion F as [|? ? Hd Fr]; subst.
  rewrite from_digits_unfold. cbn [fold_left]. unfold dstep at 2. rewrite N.mul_0_l, N.add_0_l.
  set (n := fold_left (dstep b) r d0).
  pose proof (fold_dstep_range b r ltac:(lia) Fr d0) as [G _]. fold n in G.
  assert (Pw : 2 ^ N.of_nat (length r) <= b ^ N.of_nat (length r)) by (apply N.pow_le_mono_l; lia).
  assert (Pp : 0 < 2 ^ N.of_nat (length r)) by (apply N.neq_0_lt_0, N.pow_nonzero; lia).
  assert (Hn : n <> 0) by nia.
  unfold to_digits. destruct (N.eqb_spec n 0); [contradiction|].
  assert (S : (length r < N.to_nat (N.size n))%nat).
  { pose proof (N.size_gt n) as SG.
    assert (2 ^ N.of_nat (length r) < 2 ^ N.size n) by nia.
    apply N.pow_lt_mono_r_iff in H; lia. }
  replace (Datatypes.S (N.to_nat (N.size n))) with (length r + Datatypes.S (N.to_nat (N.size n) - length r))%nat by lia.
  unfold n. rewrite peel_digits by assumption.
  cbn [to_digits_fuel]. destruct (N.eqb_spec d0 0); [contradiction|].
  rewrite N.div_small, N.mod_small by assumption.
  rewrite app_nil_r. destruct (_ - _)%nat; reflexivity.
Qed.

Lemma export_import c0 ct : c0 <> 0 -> c0 < 256 -> Forall (fun d => d < 256) ct ->
  export_be (import_be (c0 :: ct)) = c0 :: ct.
Proof.
  intros H0 Hc F. unfold export_be, import_be.
  assert (E : to_digits 256 (from_digits 256 (c0 :: ct)) = c0 :: ct) by (apply to_from_digits; [lia|assumption|now constructor]).
  destruct (N.eqb_spec (from_digits 256 (c0 :: ct)) 0) as [Z|_]; [|exact E].
  rewrite Z in E. cbn in E. injection E as E0 _. congruence.
Qed.

Lemma cstr_app_zeros s n : Forall (fun x => x <> 0) s -> cstr (s ++ zeros n) = s.
Proof.
  induction 1 as [|x l Hx _ IH]; cbn [app cstr].
  - destruct n; reflexivity.
  - destruct (N.eqb_spec x 0); [contradiction|]. now rewrite IH.
Qed.

Lemma decode62_app_zeros s n : Forall (fun x => x <> 0) s -> decode62 (s ++ zeros n) = decode62 s.
Proof.
  intros F. unfold decode62. rewrite cstr_app_zeros by assumption. now rewrite cstr_id by assumption.
Qed.

Lemma encode62_nozero z : Forall (fun x => x <> 0) (encode62 z).
Proof. eapply Forall_impl; [|apply encode62_plain]. intros a [H _]. exact H. Qed.
Lemma encode62_nonl z : Forall (fun x => x <> c_nl) (encode62 z).
Proof. eapply Forall_impl; [|apply encode62_plain]. intros a (_ & _ & _ & H). exact H. Qed.
Lemma encode62_inj a b : encode62 a = encode62 b -> a = b.
Proof. intros H. pose proof (base62_roundtrip a) as Ra. rewrite H, base62_roundtrip in Ra. congruence. Qed.

Definition isbytes (s : bytes) : Prop := Forall (fun b => b < 256) s.

Lemma encode62_isbytes z : isbytes (encode62 z).
Proof. apply encode62_chars; [lia..|]. intros d Hd. pose proof (digit_char_range d Hd). lia. Qed.

Lemma zeros_isbytes n : isbytes (zeros n).
Proof. induction n; constructor; [lia|assumption]. Qed.

Local Close Scope N_scope.
Local Open Scope Z_scope.

Section Shape.
Variable P : prims.
Variable c : cfg.
Variable iv : bytes.

(* kept folded so that cbn and lia treat 2^256, the buffer size and the GMP size formula as atoms *)
Local Opaque hide_length buf_in_size sizeinbase62 ctr_block.

(* (IV once,) line, newline, tag; the line is the number in base 62 or, encrypted, the base-62 form of '+' || ciphertext
   (CTR: then '|' and the counter); n = the zero padding of the plaintext (CTR only); with the size tests that were passed *)
Lemma send_shape st m w st' : send P c iv st m = Some (w, st') ->
  let tmp := if encr c then m + hide_length else m in
  let chunk' := if ctr_mode c then s_chunk st + 1 else s_chunk st in
  let h1 := if ctr_mode c then OpCtr (ctr_block iv chunk') :: s_hist st else s_hist st in
  exists n line,
    let ct := c_enc P h1 (encode62 tmp ++ zeros n) in
    let encval := Z.of_N (import_be (c_plus :: ct)) in
    w = (if encr c && negb (s_iv_sent st) then iv else []) ++ line ++
        c_nl :: (if auth c then mac P (line ++ c_nl :: encode62 (s_sqn st)) else []) /\
    s_sqn st' = (if auth c then s_sqn st + 1 else s_sqn st) /\ s_iv_sent st' = (s_iv_sent st || encr c) /\
    sizeinbase62 tmp * 2 < buf_in_size /\ 0 < blen (encode62 tmp) /\
    blen (encode62 tmp) + Z.of_nat n < plain_bufsize P c (sizeinbase62 tmp) /\
    if encr c then
      0 <= m /\ (ctr_mode c = true -> sizeinbase62 chunk' <= Z.of_nat (blklen P)) /\
      blen (encode62 encval) < sizeinbase62 encval + 2 + (if ctr_mode c then sizeinbase62 chunk' + 2 else 0) /\
      line = (if ctr_mode c then encode62 encval ++ bar :: encode62 chunk' else encode62 encval) /\
      s_chunk st' = chunk' /\ s_hist st' = OpData ct :: h1
    else line = encode62 m /\ s_chunk st' = s_chunk st /\ s_hist st' = s_hist st.
Proof.
  intros H tmp chunk' h1. unfold send in H. fold tmp in H.
  destruct (encr c && (m <? 0)) eqn:NG; [discriminate|].
  destruct (Z.leb_spec buf_in_size (sizeinbase62 tmp * 2)) as [|SZ]; [discriminate|].
  destruct ((0 <? blen (encode62 tmp)) && _) eqn:C1; cbn [negb] in H; [|discriminate].
  apply andb_prop in C1. destruct C1 as [C1a C1b]. apply Z.ltb_lt in C1a, C1b.
  assert (AA : forall (l t : bytes), (l ++ [c_nl]) ++ t = l ++ c_nl :: t) by (intros; now rewrite <- app_assoc).
  destruct (encr c) eqn:E.
  - fold chunk' in H. destruct (ctr_mode c && _) eqn:C2; [discriminate|]. fold h1 in H.
    set (n := Z.to_nat (plain_bufsize P c (sizeinbase62 tmp) - 1 - blen (encode62 tmp))) in H.
    exists (if ctr_mode c then n else O).
    replace (encode62 tmp ++ zeros (if ctr_mode c then n else O))
      with (if ctr_mode c then encode62 tmp ++ zeros n else encode62 tmp)
      by (destruct (ctr_mode c); [reflexivity|symmetry; apply app_nil_r]).
    destruct ((0 <? blen _) && _) eqn:C3 in H; cbn [negb] in H; [|discriminate].
    apply andb_prop in C3. destruct C3 as [_ C3]. apply Z.ltb_lt in C3.
    assert (PB : blen (encode62 tmp) + Z.of_nat (if ctr_mode c then n else O) < plain_bufsize P c (sizeinbase62 tmp))
      by (unfold n; destruct (ctr_mode c); lia).
    assert (M0 : 0 <= m) by (cbn [andb] in NG; lia).
    assert (C2' : ctr_mode c = true -> sizeinbase62 chunk' <= Z.of_nat (blklen P))
      by (intros CM; rewrite CM in C2; cbn [andb] in C2; lia).
    injection H as <- <-. eexists. cbv zeta. cbn [s_sqn s_iv_sent s_chunk s_hist andb]. repeat apply conj.
    (* the tenth conjunct fixes the line; what is left after the named facts are the iv_sent flag and the wire *)
    10: reflexivity.
    all: try assumption; try reflexivity.
    2: now rewrite orb_true_r.
    destruct (ctr_mode c), (s_iv_sent st); cbn [negb app]; rewrite <- ?app_assoc; cbn [app]; now rewrite ?AA.
  - injection H as <- <-. exists O, (encode62 m). cbn [andb app s_sqn s_iv_sent s_chunk s_hist].
    rewrite orb_false_r, <- app_assoc, AA. repeat split; try assumption; lia.
Qed.

End Shape.

Section Honest.
Variable P : prims.
Variable c : cfg.
Variable iv : bytes.         (* the sender's IV; in CTR mode the iv of both sides *)

Hypothesis mac_len : forall x, length (mac P x) = maclen P.
Hypothesis dec_enc : forall h p, isbytes p -> c_dec P h (c_enc P h p) = p.
Hypothesis enc_len : forall h p, length (c_enc P h p) = length p.
Hypothesis enc_byte : forall h p, isbytes p -> isbytes (c_enc P h p).

Local Opaque hide_length buf_in_size sizeinbase62 ctr_block.

(* opening an honest encrypted line: the counter block is set (CTR), '+' || ciphertext comes back from base 62,
   decryption on the same history gives the padded plaintext back *)
Lemma open_enc_honest k tmp n cv : encr c = true -> 0 < blen (encode62 tmp) ->
  (ctr_mode c = true -> 0 < cv /\ sizeinbase62 cv <= Z.of_nat (blklen P)) ->
  let h1 := if ctr_mode c then OpCtr (ctr_block iv cv) :: k_hist k else k_hist k in
  let ct := c_enc P h1 (encode62 tmp ++ zeros n) in
  let estr := encode62 (Z.of_N (import_be (c_plus :: ct))) in
  exists k', open_line P c iv k (if ctr_mode c then estr ++ bar :: encode62 cv else estr)
             = ((if tmp <? hide_length then Reject else Deliver (tmp - hide_length)), k')
             /\ k_sqn k' = k_sqn k /\ k_hist k' = OpData ct :: h1.
Proof.
  intros E Hne Hcv h1 ct estr.
  assert (IB : isbytes (encode62 tmp ++ zeros n)).
  { apply Forall_app. split; [apply encode62_isbytes|apply zeros_isbytes]. }
  assert (EX : export_be (Z.abs_N (Z.of_N (import_be (c_plus :: ct)))) = c_plus :: ct).
  { rewrite Zabs2N.id. apply export_import; [discriminate|reflexivity|]. now apply enc_byte. }
  assert (DP : decode62 (c_dec P h1 ct) = Some tmp).
  { unfold ct. rewrite dec_enc, decode62_app_zeros by (assumption || apply encode62_nozero). apply base62_roundtrip. }
  assert (Lct : exists c1 cr, ct = c1 :: cr).
  { destruct ct as [|c1 cr] eqn:Z; [|eauto]. apply (f_equal (@length _)) in Z. unfold ct in Z.
    rewrite enc_len, app_length in Z. unfold blen in Hne. cbn [length] in Z. lia. }
  destruct Lct as (c1 & cr & Ect).
  (* CTR: the counter is found behind '|' and the counter block set; from there on both modes open the same body *)
  unfold open_line. rewrite E. destruct (ctr_mode c) eqn:CM;
    [destruct (Hcv eq_refl) as [Hc0 Hsz]; rewrite split_at_app by apply encode62_nobar; rewrite base62_roundtrip;
     destruct (Z.ltb_spec (Z.of_nat (blklen P)) (sizeinbase62 cv)); [lia|]; destruct (Z.eqb_spec cv 0); [lia|]|].
  all: unfold estr; rewrite base62_roundtrip, EX, Ect; change (c_plus =? c_plus)%N with true;
    cbn [negb k_sqn k_chunk k_bad k_hist]; fold h1; rewrite <- Ect, DP;
    destruct (tmp <? hide_length); eexists; (split; [reflexivity|]); cbn; auto.
Qed.

Definition sync (st : sstate) (k : rcore) : Prop := k_sqn k = s_sqn st /\ k_hist k = s_hist st.

(* the honest record: the receiver in sync opens what an accepted Send wrote to the value *)
Lemma send_record st m w st' : 0 <= s_chunk st -> send P c iv st m = Some (w, st') ->
  exists line tag,
    w = (if encr c && negb (s_iv_sent st) then iv else []) ++ line ++ c_nl :: tag /\
    Forall (fun x => x <> c_nl) line /\ length tag = eff_maclen P c /\
    (auth c = true -> tag = mac P (line ++ c_nl :: encode62 (s_sqn st))) /\
    s_sqn st' = (if auth c then s_sqn st + 1 else s_sqn st) /\
    s_iv_sent st' = (s_iv_sent st || encr c) /\ 0 <= s_chunk st' /\
    forall k, sync st k -> exists k', process_record P c iv k line tag = (Deliver m, k') /\ sync st' k'.
Proof.
  intros Hch H. destruct (send_shape P c iv st m w st' H) as (n & line & Hw & Hsq & Hiv & _ & S0 & _ & X).
  exists line, (if auth c then mac P (line ++ c_nl :: encode62 (s_sqn st)) else []).
  (* the line has no newline, and open_line delivers m from it and brings the cipher history to the sender's *)
  assert (L : Forall (fun x => x <> c_nl) line /\ 0 <= s_chunk st' /\
              forall k0, k_hist k0 = s_hist st -> exists k', open_line P c iv k0 line = (Deliver m, k') /\
                                                        k_sqn k' = k_sqn k0 /\ k_hist k' = s_hist st').
  { destruct (encr c) eqn:E.
    - destruct X as (M0 & C2 & _ & -> & -> & ->). split; [|split; [destruct (ctr_mode c); lia|]].
      + destruct (ctr_mode c); [apply Forall_app; split; [|constructor; [discriminate|]]|]; apply encode62_nonl.
      + intros k0 Kh.
        destruct (open_enc_honest k0 (m + hide_length) n (if ctr_mode c then s_chunk st + 1 else s_chunk st) E S0)
          as (k' & O1 & O2 & O3).
        { intros CM. rewrite CM. split; [lia|]. specialize (C2 CM). now rewrite CM in C2. }
        rewrite Kh in O1, O3. destruct (Z.ltb_spec (m + hide_length) hide_length) in O1; [lia|].
        replace (m + hide_length - hide_length) with m in O1 by lia.
        exists k'. auto.
    - destruct X as (-> & -> & ->). split; [apply encode62_nonl|]. split; [exact Hch|].
      intros k0 Kh. exists k0. unfold open_line. rewrite E, base62_roundtrip. auto. }
  destruct L as (NL & CH & OL).
  split; [exact Hw|]. split; [exact NL|]. split; [unfold eff_maclen; destruct (auth c); [apply mac_len|reflexivity]|].
  split; [now intros ->|]. split; [exact Hsq|]. split; [exact Hiv|]. split; [exact CH|].
  intros k [Ks Kh]. unfold process_record, sync. rewrite Hsq. destruct (auth c).
  - rewrite Ks, bytes_eqb_refl.
    destruct (OL {| k_sqn := k_sqn k + 1; k_chunk := k_chunk k; k_bad := false; k_hist := k_hist k |} Kh) as (k' & O1 & O2 & O3).
    exists k'. cbn [k_sqn] in O2. rewrite <- Ks. auto.
  - destruct (OL k Kh) as (k' & O1 & O2 & O3). exists k'. rewrite <- Ks. auto.
Qed.

(* a negative integer is refused on an encrypted link: nothing is written, the state is not touched *)
Lemma send_negative_refused st m : encr c = true -> m < 0 -> send P c iv st m = None.
Proof. intros E Hm. unfold send. rewrite E. destruct (Z.ltb_spec m 0); [reflexivity|lia]. Qed.

Lemma records_honest ms : forall st w st' k fuel,
  0 <= s_chunk st -> (encr c = false \/ s_iv_sent st = true) ->
  send_all P c iv st ms = Some (w, st') -> sync st k -> (length w < fuel)%nat ->
  stream_records P c iv fuel k w = ms.
Proof.
  induction ms as [|m r IH]; intros st w st' k fuel Hch Hiv H Sy Hf.
  - cbn in H. injection H as <- <-. destruct fuel; reflexivity.
  - cbn [send_all] in H. destruct (send P c iv st m) as [[w1 st1]|] eqn:S1; [|discriminate].
    destruct (send_all P c iv st1 r) as [[w2 st2]|] eqn:S2; [|discriminate]. injection H as <- <-.
    destruct (send_record st m w1 st1 Hch S1) as (line & tag & Hw & Fl & Lt & _ & _ & Hi & Hc1 & Hp).
    destruct (Hp k Sy) as (k' & PR & Sy').
    assert (Hw' : w1 = line ++ c_nl :: tag)
      by (rewrite Hw; destruct Hiv as [-> | ->]; [reflexivity|now rewrite andb_false_r]).
    clear Hw. subst w1. rewrite <- app_assoc in *. cbn [app] in *.
    rewrite (records_step P c iv _ _ _ _ w2 _ _ Fl Lt PR) by exact Hf. f_equal.
    apply (IH st1 w2 st2 k' _ Hc1); [rewrite Hi; destruct Hiv as [->| ->]; auto|exact S2|exact Sy'|lia].
Qed.

Hypothesis iv_len : length iv = blklen P.

Theorem deliveries_honest ms w st' : send_all P c iv (sstate0 c iv) ms = Some (w, st') ->
  stream_deliveries P c iv rstate0 w = ms.
Proof.
  intros H. destruct ms as [|m r].
  - cbn in H. injection H as <- <-. unfold stream_deliveries. cbn [r_buf rstate0 app r_iv negb].
    destruct (encr c); cbn [andb]; [|reflexivity]. destruct (blklen P <=? length (@nil N))%nat; [rewrite skipn_nil|]; reflexivity.
  - cbn [send_all] in H. destruct (send P c iv (sstate0 c iv) m) as [[w1 st1]|] eqn:S1; [|discriminate].
    destruct (send_all P c iv st1 r) as [[w2 st2]|] eqn:S2; [|discriminate]. injection H as <- <-.
    assert (Hch : 0 <= s_chunk (sstate0 c iv)) by (cbn; lia).
    destruct (send_record _ m w1 st1 Hch S1) as (line & tag & -> & Fl & Lt & _ & _ & Hi & Hc1 & Hp).
    destruct (Hp (fresh_core c iv)) as (k' & PR & Sy'); [split; reflexivity|].
    cbn [sstate0 s_iv_sent negb orb] in *. rewrite andb_true_r, <- !app_assoc.
    rewrite (deliveries_fresh P c iv iv) by (intros _; exact iv_len). cbn [app].
    rewrite (records_step P c iv _ _ _ _ w2 _ _ Fl Lt PR) by lia. f_equal.
    apply (records_honest r st1 w2 st2 k' _ Hc1); [destruct (encr c); auto|exact S2|exact Sy'|lia].
Qed.

Lemma send_accepted_sign st m w st' : send P c iv st m = Some (w, st') -> encr c = true -> 0 <= m.
Proof using iv_len.
  intros H E. destruct (Z.ltb_spec m 0) as [L|L]; [|exact L]. now rewrite (send_negative_refused st m E L) in H.
Qed.

End Honest.
