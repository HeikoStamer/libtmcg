(* InterpLemmas -- proofs about InterpModel (C09): the incremental interpolation returns a polynomial through
   all points (soundness for every modulus q > 1), succeeds for pairwise distinct abscissae modulo a prime,
   and returns false when two abscissae collide. *)
From Coq Require Import ZArith Znumtheory Lia List Bool ZifyBool Setoid Morphisms.
From LT Require Import Zbase InterpModel.
Import ListNotations.
Local Open Scope Z_scope.

Definition cong (q a b : Z) : Prop := a mod q = b mod q.

#[local] Instance cong_equiv (q : Z) : Equivalence (cong q).
Proof. split; unfold cong; [intros x; reflexivity|intros x y H; now symmetry|intros x y z H1 H2; now rewrite H1]. Qed.
#[local] Instance cong_add (q : Z) : Proper (cong q ==> cong q ==> cong q) Z.add.
Proof. intros a a' Ha b b' Hb. unfold cong in *. now rewrite Zplus_mod, Ha, Hb, <- Zplus_mod. Qed.
#[local] Instance cong_mul (q : Z) : Proper (cong q ==> cong q ==> cong q) Z.mul.
Proof. intros a a' Ha b b' Hb. unfold cong in *. now rewrite Zmult_mod, Ha, Hb, <- Zmult_mod. Qed.
#[local] Instance cong_sub (q : Z) : Proper (cong q ==> cong q ==> cong q) Z.sub.
Proof. intros a a' Ha b b' Hb. unfold cong in *. now rewrite Zminus_mod, Ha, Hb, <- Zminus_mod. Qed.
Lemma cong_mod (q a : Z) : cong q (a mod q) a.
Proof. apply Zmod_mod. Qed.
Lemma cong_eq (q a b : Z) : a = b -> cong q a b.
Proof. intros ->. reflexivity. Qed.
Lemma cong_iff (q a b : Z) : cong q a b <-> a mod q = b mod q.
Proof. reflexivity. Qed.
#[global] Typeclasses Opaque cong.
Global Opaque cong.

(* un-reduced evaluation: init * x^n + sum cs[i] x^i *)
Definition ev (init x : Z) (cs : list Z) : Z := fold_right (fun c t => t * x + c) init cs.

Lemma horner_ev (q init x : Z) (cs : list Z) : cong q (horner init x q cs) (ev init x cs).
Proof.
  induction cs as [|c cs IH]; cbn [horner ev fold_right]; [reflexivity|].
  fold (horner init x q cs) (ev init x cs). rewrite !cong_mod. now rewrite IH.
Qed.

Lemma peval_ev (q x : Z) (f : list Z) : cong q (peval f x q) (ev 0 x f).
Proof.
  induction f as [|c f IH]; cbn [peval ev fold_right]; [reflexivity|].
  fold (peval f x q) (ev 0 x f). rewrite cong_mod. now rewrite IH.
Qed.

Lemma ev_app_last (init x c : Z) (cs : list Z) : ev init x (cs ++ [c]) = ev (init * x + c) x cs.
Proof. unfold ev. now rewrite fold_right_app. Qed.

(* res[i] += prod[i] * c, res[k] = c *)
Lemma ev_res_add (q c x : Z) : forall res prod, length res = length prod ->
  cong q (ev c x (res_add q c res prod)) (ev 0 x res + c * ev 1 x prod).
Proof.
  induction res as [|r rt IH]; intros [|pr pt] L; cbn [length] in L; try discriminate.
  - cbn [res_add ev fold_right]. apply cong_eq. ring.
  - cbn [res_add ev fold_right]. fold (ev c x (res_add q c rt pt)) (ev 0 x rt) (ev 1 x pt).
    rewrite !cong_mod. rewrite IH by lia. apply cong_eq. ring.
Qed.

Lemma ev_pshift (q t x : Z) : forall old prev,
  cong q (ev 1 x (pshift t q prev old)) ((x + t) * ev 1 x old + prev).
Proof.
  induction old as [|c tl IH]; intros prev; cbn [pshift ev fold_right].
  - rewrite cong_mod. apply cong_eq. ring.
  - fold (ev 1 x (pshift t q c tl)) (ev 1 x tl). rewrite !cong_mod. rewrite IH. apply cong_eq. ring.
Qed.

Lemma ev_prod_next (q a x : Z) (prod : list Z) :
  cong q (ev 1 x (prod_next a q prod)) ((x - a) * ev 1 x prod).
Proof.
  destruct prod as [|c0 tl]; cbn [prod_next ev fold_right].
  - apply cong_eq. ring.
  - fold (ev 1 x (pshift (- a) q c0 tl)) (ev 1 x tl). rewrite cong_mod, ev_pshift. apply cong_eq. ring.
Qed.

Lemma res_add_length (q c : Z) : forall res prod, length res = length prod -> length (res_add q c res prod) = length res.
Proof.
  induction res as [|r rt IH]; intros [|pr pt] L; cbn [length] in L; try discriminate; [reflexivity|].
  cbn [res_add length]. now rewrite IH by lia.
Qed.

Lemma pshift_length (t q : Z) : forall old prev, length (pshift t q prev old) = S (length old).
Proof. induction old as [|c tl IH]; intros prev; cbn [pshift length]; [reflexivity|]. now rewrite IH. Qed.

Lemma prod_next_length (a q : Z) (prod : list Z) : length (prod_next a q prod) = S (length prod).
Proof. destruct prod as [|c0 tl]; cbn [prod_next length]; [reflexivity|]. now rewrite pshift_length. Qed.

Definition zprod (x : Z) (done : list (Z * Z)) : Z := fold_right (fun ab acc => acc * (x - fst ab)) 1 done.

Lemma zprod_zero (a b : Z) (done : list (Z * Z)) : In (a, b) done -> zprod a done = 0.
Proof.
  induction done as [|[a' b'] tl IH]; intros H; [contradiction|]. cbn [zprod fold_right fst]. fold (zprod a tl).
  destruct H as [H|H]; [inversion H; lia|]. rewrite IH by assumption. lia.
Qed.

Section Loop.
  Variable q : Z.
  Hypothesis Hq : 1 < q.

  (* the invariant of the main loop (processed points newest first) *)
  Definition ip_inv (done : list (Z * Z)) (st : list Z * list Z) : Prop :=
    length (fst st) = length done /\ length (snd st) = length done /\
    (forall x, cong q (ev 1 x (fst st)) (zprod x done)) /\
    (forall a b, In (a, b) done -> cong q (ev 0 a (snd st)) b).

  Lemma step_inv (done : list (Z * Z)) (st st' : list Z * list Z) (a b : Z) :
    ip_inv done st -> ip_step q st (a, b) = Some st' -> ip_inv ((a, b) :: done) st'.
  Proof.
    destruct st as [prod res]. intros (L1 & L2 & HP & HR) E. cbn [fst snd] in *.
    unfold ip_step in E. destruct (invm (horner 1 a q prod) q) as [i|] eqn:EI; [|discriminate].
    inversion E; subst st'; clear E. unfold ip_inv. cbn [fst snd].
    apply invm_some in EI. destruct EI as (_ & _ & HI).
    assert (HI' : cong q (ev 1 a prod * i) 1).
    { transitivity (horner 1 a q prod * i); [now rewrite horner_ev|now apply cong_iff]. }
    split; [rewrite prod_next_length; cbn [length]; lia|].
    split; [rewrite app_length, res_add_length by lia; cbn [length]; lia|].
    split.
    - intros x. rewrite ev_prod_next. cbn [zprod fold_right fst]. fold (zprod x done). rewrite HP. apply cong_eq. ring.
    - intros a' b' [H|H].
      + inversion H; subst a' b'; clear H.
        rewrite ev_app_last, Z.mul_0_l, Z.add_0_l. rewrite ev_res_add by lia.
        rewrite !cong_mod. rewrite horner_ev.
        transitivity (ev 0 a res + (b - ev 0 a res) * (ev 1 a prod * i)); [apply cong_eq; ring|].
        rewrite HI'. apply cong_eq. ring.
      + rewrite ev_app_last, Z.mul_0_l, Z.add_0_l. rewrite ev_res_add by lia.
        rewrite HP. rewrite (zprod_zero a' b' done H). rewrite (HR a' b' H). apply cong_eq. ring.
  Qed.

  Lemma loop_inv : forall pts done st f, ip_inv done st -> ip_loop q st pts = Some f ->
    exists prod, ip_inv (rev pts ++ done) (prod, f).
  Proof.
    induction pts as [|[a b] tl IH]; intros done st f Hinv E; cbn [ip_loop] in E.
    - inversion E. exists (fst st). cbn [rev app]. destruct st; exact Hinv.
    - destruct (ip_step q st (a, b)) as [st'|] eqn:ES; [|discriminate].
      destruct (IH ((a, b) :: done) st' f (step_inv done st st' a b Hinv ES) E) as [prod H].
      exists prod. cbn [rev]. now rewrite <- app_assoc.
  Qed.

  Lemma ip_inv_nil : ip_inv [] ([], []).
  Proof.
    split; [reflexivity|]. split; [reflexivity|]. split; [intros x; reflexivity|intros a b []].
  Qed.

  (* soundness: whatever is returned passes through every point, has as many coefficients as points *)
  Theorem interpolate_sound (pts : list (Z * Z)) (f : list Z) : interpolate pts q = IpOk f ->
    length f = length pts /\ forall a b, In (a, b) pts -> peval f a q = b mod q.
  Proof.
    unfold interpolate. destruct pts as [|pt tl] eqn:EP; [discriminate|]. rewrite <- EP. clear EP pt tl.
    destruct (Z.eqb_spec q 0); [lia|].
    destruct (ip_loop q ([], []) pts) as [f'|] eqn:EL; [|discriminate].
    intros E; inversion E; subst f'; clear E.
    destruct (loop_inv pts [] ([], []) f ip_inv_nil EL) as [prod (L1 & L2 & HP & HR)].
    rewrite app_nil_r in *. cbn [fst snd] in *. split; [now rewrite L2, rev_length|].
    intros a b Hin. specialize (HR a b (proj1 (in_rev pts (a, b)) Hin)).
    assert (C : cong q (peval f a q) b) by (now rewrite peval_ev).
    assert (R : peval f a q mod q = peval f a q).
    { destruct f as [|c f']; cbn [peval fold_right]; [apply Z.mod_0_l; lia|apply Zmod_mod]. }
    rewrite <- R. now apply cong_iff.
  Qed.

  Lemma cong_gcd (x y : Z) : cong q x y -> Z.gcd x q = Z.gcd y q.
  Proof.
    intros E. apply cong_iff in E.
    transitivity (Z.gcd (x mod q) q); [rewrite Z.gcd_mod by lia; apply Z.gcd_comm|].
    rewrite E. rewrite Z.gcd_mod by lia. apply Z.gcd_comm.
  Qed.

  (* a round fails exactly when the product of the differences to the earlier abscissae is not a unit *)
  Lemma step_none (done : list (Z * Z)) (st : list Z * list Z) (a b : Z) : ip_inv done st ->
    (ip_step q st (a, b) = None <-> Z.gcd (zprod a done) q <> 1).
  Proof.
    destruct st as [prod res]. intros (_ & _ & HP & _). cbn [fst] in HP.
    rewrite <- (cong_gcd (horner 1 a q prod)) by (rewrite horner_ev; apply HP). rewrite <- invm_none by lia.
    unfold ip_step. destruct (invm (horner 1 a q prod) q); split; congruence.
  Qed.

  Lemma zprod_collide (a a' b' : Z) (done : list (Z * Z)) : In (a', b') done -> (a - a') mod q = 0 ->
    cong q (zprod a done) 0.
  Proof.
    induction done as [|[x y] tl IH]; intros Hin Hc; [contradiction|]. cbn [zprod fold_right fst]. fold (zprod a tl).
    destruct Hin as [E|Hin].
    - inversion E; subst x y. assert (C : cong q (a - a') 0).
      { apply cong_iff. rewrite Hc. now rewrite Z.mod_0_l by lia. }
      rewrite C. apply cong_eq. ring.
    - rewrite (IH Hin Hc). apply cong_eq. ring.
  Qed.

  (* a colliding abscissa: the routine returns false *)
  Lemma loop_collision : forall pre done st a b post a' b', ip_inv done st ->
    In (a', b') (rev pre ++ done) -> (a - a') mod q = 0 ->
    ip_loop q st (pre ++ (a, b) :: post) = None.
  Proof.
    induction pre as [|[x y] pre IH]; intros done st a b post a' b' Hinv Hin Hc; cbn [app ip_loop].
    - rewrite (proj2 (step_none done st a b Hinv)); [reflexivity|]. cbn [rev app] in Hin.
      rewrite (cong_gcd _ 0) by now apply (zprod_collide a a' b'). rewrite Z.gcd_0_l. lia.
    - destruct (ip_step q st (x, y)) as [st'|] eqn:ES; [|reflexivity].
      apply (IH ((x, y) :: done) st' a b post a' b'); [now apply (step_inv done st st' x y)| |assumption].
      cbn [rev] in Hin. now rewrite <- app_assoc in Hin.
  Qed.

  Theorem interpolate_collision (pre post : list (Z * Z)) (a b a' b' : Z) :
    In (a', b') pre -> (a - a') mod q = 0 -> interpolate (pre ++ (a, b) :: post) q = IpFalse.
  Proof.
    intros Hin Hc. unfold interpolate.
    destruct (pre ++ (a, b) :: post) as [|pt tl] eqn:EP; [destruct pre; discriminate|]. rewrite <- EP. clear EP pt tl.
    destruct (Z.eqb_spec q 0); [lia|].
    rewrite (loop_collision pre [] ([], []) a b post a' b' ip_inv_nil); [reflexivity| |assumption].
    rewrite app_nil_r. now apply in_rev in Hin.
  Qed.
End Loop.

Section Complete.
  Variable q : Z.
  Hypothesis Pq : prime q.
  Let Hq : 1 < q. Proof. exact (prime_gt1 q Pq). Qed.

  Definition fresh (a : Z) (done : list (Z * Z)) : Prop := forall a' b', In (a', b') done -> (a - a') mod q <> 0.

  Lemma zprod_unit (a : Z) (done : list (Z * Z)) : fresh a done -> Z.gcd (zprod a done) q = 1.
  Proof.
    induction done as [|[a' b'] tl IH]; intros H; cbn [zprod fold_right fst].
    - apply Z.gcd_1_l.
    - fold (zprod a tl). apply Zgcd_1_rel_prime. apply rel_prime_sym. apply rel_prime_mult.
      + apply rel_prime_sym. apply Zgcd_1_rel_prime. apply IH. intros x y Hin. apply (H x y). now right.
      + apply prime_rel_prime; [assumption|]. intros D. apply (H a' b'); [now left|].
        apply Z.mod_divide; [lia|assumption].
  Qed.

  (* pairwise distinct abscissae modulo the prime q: every round finds its inverse *)
  Lemma loop_complete : forall pts done st, ip_inv q done st ->
    (forall pre a b post, pts = pre ++ (a, b) :: post -> fresh a (rev pre ++ done)) ->
    exists f, ip_loop q st pts = Some f.
  Proof.
    induction pts as [|[a b] tl IH]; intros done st Hinv Hf; cbn [ip_loop]; [eauto|].
    destruct (ip_step q st (a, b)) as [st'|] eqn:ES.
    - apply (IH ((a, b) :: done) st'); [now apply (step_inv q done st)|].
      intros pre a0 b0 post E. specialize (Hf ((a, b) :: pre) a0 b0 post). cbn [app rev] in Hf.
      rewrite <- app_assoc in Hf. cbn [app] in Hf. apply Hf. now rewrite E.
    - exfalso. apply (step_none q Hq done st a b Hinv) in ES. apply ES, zprod_unit, (Hf [] a b tl eq_refl).
  Qed.

  Theorem interpolate_complete (pts : list (Z * Z)) : pts <> [] ->
    (forall pre a b post, pts = pre ++ (a, b) :: post -> fresh a pre) ->
    exists f, interpolate pts q = IpOk f.
  Proof.
    intros NE Hf. unfold interpolate. destruct pts as [|pt tl] eqn:EP; [contradiction|]. rewrite <- EP in *. clear EP pt tl NE.
    destruct (Z.eqb_spec q 0); [lia|].
    destruct (loop_complete pts [] ([], []) (ip_inv_nil q)) as [f E].
    - intros pre a b post Ep a' b' Hin. rewrite app_nil_r in Hin. apply in_rev in Hin. now apply (Hf pre a b post Ep a' b').
    - rewrite E. eauto.
  Qed.

End Complete.
