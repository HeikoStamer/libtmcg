(* C17 -- Distributed coin flips are common and bound by commitments.
   Property theorems only: each is closed by `exact <lemma>` and followed by Print Assumptions. *)
From Coq Require Import ZArith NArith List Bool Znumtheory Lia.
From LT Require Import gen_Consts Zbase CodecModel VssModel CoinFlipArith CoinFlipModel CoinFlipLemmas CoinFlipNModel CoinFlipNLemmas.
Import ListNotations.
Local Open Scope Z_scope.

(* two honest parties output the same coin (a0 + a1) mod q; each plays exactly the lines the other reads *)
Theorem C17_flip2_same_coin : forall G a0 b0 a1 b1 f0 f1, valid G ->
  0 <= a0 < gq G -> 0 <= b0 < gq G -> 0 <= a1 < gq G -> 0 <= b1 < gq G ->
  exists l0 l1 t0 t1,
    honest_lines G a0 b0 = Some l0 /\ honest_lines G a1 b1 = Some l1 /\
    flip2 G a0 b0 false f0 (script_peer l1) = (t0, Coin ((a0 + a1) mod gq G)) /\
    flip2 G a1 b1 false f1 (script_peer l0) = (t1, Coin ((a0 + a1) mod gq G)) /\
    map (fun v => (wire v, true)) (sends t0) = l0 /\ map (fun v => (wire v, true)) (sends t1) = l1.
Proof. exact flip2_same_coin. Qed.
Print Assumptions C17_flip2_same_coin.

(* in EVERY trace against an arbitrary (adaptive) peer, with or without the fault switches: any Send after the
   first event is preceded by the receipt of a well-formed peer commitment, which the peer computed from the
   party's commitment alone *)
Theorem C17_flip2_commit_before_reveal : forall G a b f fr (P : peer) tr out, flip2 G a b f fr P = (tr, out) ->
  forall k v, nth_error tr k = Some (Send v) -> (k <> 0)%nat ->
  exists C m C', nth_error tr 0 = Some (Send C) /\ nth_error tr 1 = Some (Recv m) /\ (1 < k)%nat /\
                 m = P [Send C] /\ parse m = PVal C' /\ check_element G C' = true.
Proof. exact commit_before_reveal. Qed.
Print Assumptions C17_flip2_commit_before_reveal.

(* a withheld / malformed / non-member peer commitment: nothing but the commitment is ever written, no coin *)
Theorem C17_flip2_withheld_commitment : forall G a b f fr (P : peer) tr out, flip2 G a b f fr P = (tr, out) ->
  (forall C', parse (P (firstn 1 tr)) = PVal C' -> check_element G C' = false) ->
  (length (sends tr) <= 1)%nat /\ forall z, out <> Coin z.
Proof. exact withheld_commitment. Qed.
Print Assumptions C17_flip2_withheld_commitment.

(* the commitment hides the share perfectly (h = g^x, x a unit): what the peer says after seeing only the
   commitment is consistent with every value of the party's share *)
Theorem C17_commit_hiding : forall G, valid G -> forall x a b a', 0 <= x -> x mod gq G <> 0 ->
  gh G mod gp G = powm (gg G) x (gp G) ->
  exists b', 0 <= b' < gq G /\ forall C, opens G C a b -> opens G C a' b'.
Proof. exact commit_hiding. Qed.
Print Assumptions C17_commit_hiding.

(* a coin is output only for an in-range opening of exactly the stored commitment, and it is the sum *)
Theorem C17_flip2_coin_sound : forall G a b fr (P : peer) tr z, valid G -> flip2 G a b false fr P = (tr, Coin z) ->
  exists C C' a' b' m1 m2 m3,
    tr = [Send C; Recv m1; Send a; Send b; Recv m2; Recv m3] /\
    commit G a b = Some C /\
    parse m1 = PVal C' /\ parse m2 = PVal a' /\ parse m3 = PVal b' /\
    check_element G C' = true /\ Z.abs a' < gq G /\ Z.abs b' < gq G /\
    opens G C' a' b' /\ z = (a + a') mod gq G.
Proof. exact flip2_coin_sound. Qed.
Print Assumptions C17_flip2_coin_sound.

Theorem C17_flip2_bad_opening_rejects : forall G a b f fr (P : peer) C0 C' a' b', valid G ->
  commit G a b = Some C0 ->
  let C := C0 + b2z f in
  let m1 := P [Send C] in
  let t3 := [Send C; Recv m1; Send (a + b2z f); Send (b + b2z (f && fr))] in
  let m2 := P t3 in
  let m3 := P (t3 ++ [Recv m2]) in
  parse m1 = PVal C' -> check_element G C' = true -> parse m2 = PVal a' -> parse m3 = PVal b' ->
  (gq G <= Z.abs a' \/ gq G <= Z.abs b' \/ ~ opens G C' a' b') ->
  snd (flip2 G a b f fr P) = Reject.
Proof. exact flip2_bad_opening_rejects. Qed.
Print Assumptions C17_flip2_bad_opening_rejects.

(* binding reduction: two openings of one commitment to different values yield log_g h (explicit extractor) *)
Theorem C17_flip2_binding_reduction : forall G, valid G -> forall C a1 b1 a2 b2,
  opens G C a1 b1 -> opens G C a2 b2 -> a1 mod gq G <> a2 mod gq G ->
  exists x, extract_log (gq G) a1 b1 a2 b2 = Some x /\ 0 <= x < gq G /\ powm (gg G) x (gp G) = gh G mod gp G.
Proof. exact binding_extract. Qed.
Print Assumptions C17_flip2_binding_reduction.

(* n-party decision: no complaint against j exactly for an in-range opening of C_j0; the share that enters the
   sum is that opening or the reconstructed value; the coin is the sum modulo q *)
Theorem C17_flipN_no_complaint_iff : forall G o, valid G -> forall a b, o_a o = Some a -> o_hata o = Some b ->
  (flipN_complaint G o = Some false <-> Z.abs a < gq G /\ Z.abs b < gq G /\ opens G (o_C o mod gp G) a b).
Proof. exact flipN_no_complaint_iff. Qed.
Print Assumptions C17_flipN_no_complaint_iff.

Theorem C17_flipN_share_ok : forall G o rec v, valid G -> flipN_share G o rec = Some v ->
  v = rec \/ (exists b, o_a o = Some v /\ o_hata o = Some b /\ Z.abs v < gq G /\ Z.abs b < gq G /\
                        opens G (o_C o mod gp G) v b).
Proof. exact flipN_share_ok. Qed.
Print Assumptions C17_flipN_share_ok.

Theorem C17_flipN_sum : forall q l, 0 < q -> flipN_sum q l = (fold_right Z.add 0 l) mod q.
Proof. exact flipN_sum_spec. Qed.
Print Assumptions C17_flipN_sum.

(* N-party Flip over Joint-RVSS (coq/CoinFlipNModel.v) *)
(* RVSS::Share: a qualified dealer and (no own complaint, or an answer to it) => the party ends with a share matching the
   dealer's commitments (without the answer it fails, see the example below) *)
Theorem C17_rvss_final_share_matches : forall G t i d, dealer_qualified G t d = true ->
  my_complaint G i d = false \/ answered i d = true ->
  exists sh, final_share G i d = Some sh /\ matches G (d_cm d) (i + 1) sh = true.
Proof. exact final_share_matches. Qed.
Print Assumptions C17_rvss_final_share_matches.

Theorem C17_rvss_qual_common : forall G t d1 d2, d_cm d1 = d_cm d2 -> d_ncompl d1 = d_ncompl d2 -> d_answers d1 = d_answers d2 ->
  dealer_qualified G t d1 = dealer_qualified G t d2.
Proof. exact rvss_qual_common. Qed.
Print Assumptions C17_rvss_qual_common.

(* ... and under binding that share lies on the dealer's committed polynomial: the premise view_ok of the Flip theorems *)
Theorem C17_rvss_own_share_committed : forall G t i d mb f, m_cm mb = d_cm d -> committed G t mb f -> 0 <= i ->
  dealer_qualified G t d = true -> my_complaint G i d = false \/ answered i d = true ->
  exists sh, final_share G i d = Some sh /\ fst sh mod gq G = poly_eval (gq G) f (i + 1).
Proof. exact own_share_committed. Qed.
Print Assumptions C17_rvss_own_share_committed.

(* Flip step 3: the complaint list handed to Reconstruct (sort, then unique) is duplicate-free, sorted and has exactly the members
   that were complained about, whatever the arrival order and however often each was pushed; so <= t distinct targets never exceed t *)
Theorem C17_flipN_complaint_set : forall raw,
  NoDup (complaint_set raw) /\ sorted (complaint_set raw) /\ forall z, In z (complaint_set raw) <-> In z raw.
Proof. exact complaint_set_spec. Qed.
Print Assumptions C17_flipN_complaint_set.

Theorem C17_flipN_complaint_set_bound : forall raw targets, (forall z, In z raw -> In z targets) ->
  (length (complaint_set raw) <= length targets)%nat.
Proof. exact complaint_set_bound. Qed.
Print Assumptions C17_flipN_complaint_set_bound.

(* the coin a party computes from its view = the sum of the committed shares of the members of Qual.
   committed mb f: the binding property of mb's Pedersen commitments (hypothesis; violating it yields log_g h);
   view_ok i mb f: party i's own share of mb lies on f (C17_rvss_final_share_matches) and the indices are below q - 1. *)
Theorem C17_flipN_party_sum : forall G, valid G -> forall t, 0 <= t -> forall i mbs fs c,
  Forall2 (fun mb f => committed G t mb f /\ view_ok G i mb f) mbs fs ->
  flipN_party G t i mbs = Some c ->
  c = (fold_right Z.add 0 (map (fun f => poly_eval (gq G) f 0) fs)) mod gq G.
Proof. exact flipN_party_sum. Qed.
Print Assumptions C17_flipN_party_sum.

(* all honest parties output the same value, the sum of the committed shares of Qual modulo q, whatever openings failed and
   whichever verified shares each of them used for the reconstructions *)
Theorem C17_flipN_common : forall G, valid G -> forall t, 0 <= t -> forall i i' mbs mbs' fs c c',
  Forall2 (fun mb f => committed G t mb f /\ view_ok G i mb f) mbs fs ->
  Forall2 (fun mb f => committed G t mb f /\ view_ok G i' mb f) mbs' fs ->
  flipN_party G t i mbs = Some c -> flipN_party G t i' mbs' = Some c' ->
  c = c' /\ c = (fold_right Z.add 0 (map (fun f => poly_eval (gq G) f 0) fs)) mod gq G /\ 0 <= c < gq G.
Proof. exact flipN_common. Qed.
Print Assumptions C17_flipN_common.

(* non-vacuity: a concrete valid group (p = 23, q = 11, g = 2, h = 3 = 2^8), a run that yields a coin, and
   two different openings of one commitment *)
Definition G23 : group := mkGroup 23 11 2 3.
Example C17_nonvacuous_valid : valid G23.
Proof.
  unfold valid, G23, in_sub. cbn [gp gq gg gh].
  split; [lia|]. split; [apply prime_11|]. split; [vm_compute; discriminate|].
  split; [reflexivity|]. split; [reflexivity|]. vm_compute. discriminate.
Qed.
Example C17_nonvacuous_run :
  exists l, honest_lines G23 4 9 = Some l /\ snd (flip2 G23 5 7 false false (script_peer l)) = Coin 9.
Proof. exists [([67%N], true); ([52%N], true); ([57%N], true)]. split; vm_compute; reflexivity. Qed.
Example C17_nonvacuous_two_openings : opens G23 (powm 2 5 23 * powm 3 1 23 mod 23) 5 1 /\
  opens G23 (powm 2 5 23 * powm 3 1 23 mod 23) 2 0 /\ extract_log 11 5 1 2 0 = Some 8.
Proof. repeat split; vm_compute; reflexivity. Qed.
(* the unanswered complaint (finding nparty-unanswered-complaint) on the model: p = 23, q = 11, g = 2, h = 3, t = 1, dealer
   polynomial f = 4 + 2X, f^ = 1 + X, commitments C_0 = 2^4 3^1, C_1 = 2^2 3^1; party i = 1 (abscissa 2) receives (f(2)+1, f^(2)):
   it complains, the dealer answers nothing and has one complaint <= t: qualified, and the party keeps a share that does not match *)
Example C17_rvss_unanswered_complaint_refuted :
  let d := mkDealer [powm 2 4 23 * powm 3 1 23 mod 23; powm 2 2 23 * powm 3 1 23 mod 23] (Some (9, 3)) 1 [] in
  dealer_qualified G23 1 d = true /\ my_complaint G23 1 d = true /\ answered 1 d = false /\
  final_share G23 1 d = Some (9, 3) /\ matches G23 (d_cm d) 2 (9, 3) = false /\ matches G23 (d_cm d) 2 (8, 3) = true.
Proof. cbv zeta. repeat split; vm_compute; reflexivity. Qed.
Example C17_nonvacuous_complaint_set : complaint_set [5; 1; 5] = [1; 5] /\ uniq_adj [5; 1; 5] = [5; 1; 5].
Proof. split; reflexivity. Qed.
