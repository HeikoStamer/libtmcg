(* RbcStep3: local progress facts (C14 totality): r-ready goes to everybody, thresholds trigger r-ready and dbar,
   every first r-ready from a peer is counted. *)
From Coq Require Import ZArith List Bool Lia.
From LT Require Import RbcModel RbcLemmas RbcStep.
Import ListNotations.
Local Open Scope Z_scope.

Section Step3.
Variables (n t : Z) (H : Z -> Z) (toolong : tagT -> Z -> bool).
Notation handle := (handle n t H toolong).

(* the ready condition: t+1 readys or n-t echoes for (tg, d) *)
Definition rcond (st : pst) (tg : tagT) (d : Z) : Prop := t + 1 <= rd st tg d \/ n - t <= ed st tg d.

Lemma ready_sent : forall (m : msg) d, 0 < n ->
  exists dst x, In (dst, x) (to_all n (Msg (m_id m) (m_j m) (m_s m) 3 d)) /\ mtag x = mtag m /\ m_act x = 3 /\ m_pay x = d.
Proof.
  intros m d N. exists 0, (Msg (m_id m) (m_j m) (m_s m) 3 d). split; [|auto].
  apply in_map_iff. exists 0. split; auto. apply range_in. lia.
Qed.

Variable skip : Z.
Notation deliver := (deliver n t skip H toolong).

Set Implicit Arguments.
Record pstep3 (st st' : pst) (out : list (Z * msg)) (offer : option (Z * msg)) : Prop := {
  (* r-ready is always sent to every party *)
  p3_ready_all : forall dst x, In (dst, x) out -> m_act x = 3 -> forall i, In i (range n) -> In (i, x) out;
  (* t+1 readys or n-t echoes trigger r-ready *)
  p3_ready_rule : 0 < t -> forall tg d, rcond st' tg d ->
     rcond st tg d \/ exists dst x, In (dst, x) out /\ mtag x = tg /\ m_act x = 3 /\ m_pay x = d;
  (* 2t+1 readys fix the digest *)
  p3_dbar_rule : forall tg d, 2 * t + 1 <= rd st' tg d -> 2 * t + 1 <= rd st tg d \/ dbar st' tg <> None;
  (* the first r-ready of a peer for a tag is counted (unless its digest is over-long) *)
  p3_fready : forall k tg, filt st FReady k tg = false -> filt st' FReady k tg = true ->
     exists m, offer = Some (k, m) /\ tg = mtag m /\ m_act m = 3 /\
               (toolong tg (m_pay m) = true \/ rd st' tg (m_pay m) = rd st tg (m_pay m) + 1);
  (* an echo quorum triggers r-ready unless t+1 readys were there already (needed for t = 0) *)
  p3_echo_rule : forall tg d, n - t <= ed st' tg d ->
     n - t <= ed st tg d \/ (exists dst x, In (dst, x) out /\ mtag x = tg /\ m_act x = 3 /\ m_pay x = d) \/ t + 1 <= rd st' tg d }.
Unset Implicit Arguments.

Lemma pstep3_fbuf : forall st st' out off x, pstep3 st st' out off -> pstep3 st (set_fbuf st' x) out off.
Proof. intros st st' out off x []. constructor; assumption. Qed.

Lemma pstep3_same : forall st st' out off,
  filt st' = filt st -> ed st' = ed st -> rd st' = rd st ->
  (forall dst x, In (dst, x) out -> m_act x <> 3) -> pstep3 st st' out off.
Proof.
  intros st st' out off E1 E2 E3 A. constructor; unfold rcond; rewrite ?E1, ?E2, ?E3; auto.
  - intros dst x I A3. apply A in I. contradiction.
  - intros k tg F0 F1. congruence.
Qed.

Lemma handle_pstep3 : forall me st l m st' out r, handle me st l m = (st', out, r) -> pstep3 st st' out (Some (l, m)).
Proof.
  intros me st l m st' out r HH. apply handle_inv in HH. constructor; unfold rcond.
  - intros dst xm I A3 i Ii. destruct HH; in_out I; subst; try discriminate A3; apply in_map_iff; exists i; auto.
  - intros T0 tg d. destruct HH; proj; auto;
    first [ destruct (upd2_bump (ed st) (mtag m) (m_pay m) tg d) as [->|(-> & -> & ->)]
          | destruct (upd2_bump (rd st) (mtag m) (m_pay m) tg d) as [->|(-> & -> & ->)] ]; auto; intros Rc;
    first [ left; lia | right; apply ready_sent; lia ].
  - intros tg d. destruct HH; proj; auto;
    destruct (upd2_bump (rd st) (mtag m) (m_pay m) tg d) as [->|(-> & -> & ->)]; auto; intros Rc;
    try (left; lia); try (right; destruct Db as [-> _]; discriminate).
    destruct R as [R|(db & -> & _)]; [left; lia|right; discriminate].
  - intros k' tg F0 F1. destruct HH; proj; try congruence;
    apply (fset_new _ _ _ _ _ _ _ F0) in F1; destruct F1 as (K & -> & ->); try discriminate K; exists m.
    all: try (rewrite upd2_same; auto; fail).
    subst k. destruct R as [A L]. repeat split; auto.
  - intros tg d. destruct HH; proj; auto;
    destruct (upd2_bump (ed st) (mtag m) (m_pay m) tg d) as [->|(-> & -> & ->)]; auto; intros Rc.
    + (* HEcho *) right; left. apply ready_sent. lia.
    + (* HEchoQuiet *) lia.
Qed.

Lemma pstep3_buffer : forall me st st1 sent1 st2 out off, buffer_phase n skip me st = (st1, sent1) ->
  pstep3 st1 st2 out off -> pstep3 st st2 (sent1 ++ out) off.
Proof.
  intros me st st1 sent1 st2 out off BP [X1 X2 X3 X5 X6].
  apply buffer_phase_spec in BP. destruct BP as (Fr & _ & A6 & _).
  pose proof (fun k tg => frame_filt_false _ _ FReady k tg Fr) as Fk. destruct Fr as (_ & _ & _ & Ed & Rd & _).
  unfold rcond in *. rewrite Ed, Rd in *. constructor; unfold rcond; rewrite ?Ed, ?Rd; auto.
  - intros dst x I A3 i Ii. apply (act6_or_later _ _ _ _ A6) in I. destruct I as [E|I]; [lia|].
    apply in_or_app. eauto.
  - intros T0 tg d C. destruct (X2 T0 tg d C) as [C0|(dst & x & I & E)]; auto.
    right. exists dst, x. split; auto. apply in_or_app. auto.
  - intros k tg F0 F1. apply X5; auto. apply Fk; [discriminate|exact F0].
  - intros tg d C. destruct (X6 tg d C) as [C0|[(dst & x & I & E)|C0]]; auto.
    right. left. exists dst, x. split; auto. apply in_or_app. auto.
Qed.

Lemma deliver_pstep3 : forall me st offer,
  let o := deliver me st offer in pstep3 st (o_st o) (o_sent o) offer.
Proof.
  intros me st offer. destruct (deliver_inv n t skip H toolong me st offer); cbv zeta; cbn [o_st o_sent].
  - apply pstep3_same; auto.
  - apply pstep3_same; auto.
  - rewrite <- (app_nil_r sent1). eapply pstep3_buffer; eauto. apply pstep3_same; auto.
  - eapply pstep3_buffer; eauto. eapply handle_pstep3; exact HH.
Qed.

End Step3.
