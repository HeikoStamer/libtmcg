(* ShuffleQrLemmas: proofs about ShuffleQrModel -- the compensation row makes every column of a created card
   secret XOR to zero (so masking with it keeps the card type), for every index and every coin list. *)
From Coq Require Import ZArith NArith List Bool Lia ZifyBool.
From LT Require Import ListFacts SamplerModel ShuffleModel ShuffleLemmas ShuffleQrModel.
Import ListNotations.
Local Open Scope N_scope.

Lemma xor_branch_xorb a b : xor_branch a b = xorb a b.
Proof. destruct a, b; reflexivity. Qed.

Lemma vxb_vxor a b : vxb a b = vxor a b.
Proof. unfold vxb, vxor. apply map_ext. intros [x y]. apply xor_branch_xorb. Qed.

Lemma vxor_comm : forall a b, vxor a b = vxor b a.
Proof. induction a as [|x a IH]; intros [|y b]; cbn; try reflexivity. unfold vxor in *. cbn. now rewrite xorb_comm, IH. Qed.

Lemma vxor_assoc : forall a b c, vxor a (vxor b c) = vxor (vxor a b) c.
Proof.
  induction a as [|x a IH]; intros [|y b] [|z c]; cbn; try reflexivity.
  unfold vxor in *. cbn. rewrite xorb_assoc. f_equal. apply IH.
Qed.

Lemma vxor_length : forall a b, length (vxor a b) = Nat.min (length a) (length b).
Proof. intros. unfold vxor. now rewrite map_length, combine_length. Qed.

Lemma vxor_self : forall a, vxor a a = repeat false (length a).
Proof. induction a as [|x a IH]; [reflexivity|]. unfold vxor in *. cbn. now rewrite xorb_nilpotent, IH. Qed.

Lemma col_xor_length w bits : Forall (fun r => length r = w) bits -> length (col_xor w bits) = w.
Proof.
  induction 1 as [|r bits Hr _ IH]; cbn; [apply repeat_length|].
  fold (col_xor w bits). rewrite vxor_length, IH, Hr. lia.
Qed.

Lemma col_xor_move w a x b : col_xor w (a ++ x :: b) = vxor x (col_xor w (a ++ b)).
Proof.
  unfold col_xor. induction a as [|h a IH]; [reflexivity|]. cbn. rewrite IH.
  rewrite !vxor_assoc. f_equal. apply vxor_comm.
Qed.

Lemma fold_left_vxb (l : list (list (Z * bool))) z :
  fold_left (fun a row => vxb a (map snd row)) l z = fold_left vxor (map (map snd) l) z.
Proof. revert z. induction l as [|r l IH]; intros z; [reflexivity|]. cbn. now rewrite vxb_vxor, IH. Qed.

Lemma qr_row_spec : forall w is_index m s row s', qr_row w is_index m s = Ret (row, s') ->
  length row = w /\ (is_index = true -> map snd row = repeat false w).
Proof.
  induction w as [|w IH]; intros is_index m s row s'; cbn [qr_row].
  - intros E. injection E as <- <-. auto.
  - destruct (qr_entry is_index m s) as [[e s1]| | | | |] eqn:Q; cbn [bind fst snd]; try discriminate.
    destruct (qr_row w is_index m s1) as [[r s2]| | | | |] eqn:R; cbn [bind fst snd]; try discriminate.
    intros E. injection E as <- <-. apply IH in R. destruct R as (L & Hb). split; [cbn; now rewrite L|].
    intros ->. cbn. rewrite Hb by reflexivity. f_equal.
    unfold qr_entry in Q. destruct (random_unit m s) as [[r0 s0]| | | | |]; cbn [bind fst snd] in Q; try discriminate.
    injection Q as <- _. reflexivity.
Qed.

Lemma qr_rows_spec w index : forall ms k s rows s', qr_rows k ms w index s = Ret (rows, s') ->
  length rows = length ms /\ Forall (fun r => length r = w) rows /\
  (forall i row, nth_error rows i = Some row -> (k + i)%nat = index -> map snd row = repeat false w).
Proof.
  induction ms as [|m ms IH]; intros k s rows s'; cbn [qr_rows].
  - intros E. injection E as <- <-. repeat split; [constructor|]. intros [|i] row; discriminate.
  - destruct (qr_row w (k =? index)%nat m s) as [[r s1]| | | | |] eqn:R; cbn [bind fst snd]; try discriminate.
    destruct (qr_rows (S k) ms w index s1) as [[rr s2]| | | | |] eqn:RR; cbn [bind fst snd]; try discriminate.
    intros E. injection E as <- <-. apply IH in RR. destruct RR as (L & F & H). apply qr_row_spec in R. destruct R as (Lr & Hb).
    repeat split; [cbn; now rewrite L | now constructor|].
    intros [|i] row E Hi; cbn in E.
    + injection E as <-. apply Hb. apply Nat.eqb_eq. lia.
    + apply (H i row E). lia.
Qed.

Theorem create_card_secret_col_xor ms w index s cs s' : create_card_secret ms w index s = Ret (cs, s') ->
  (index < length ms)%nat /\ length cs = length ms /\ Forall (fun r => length r = w) cs /\
  col_xor w (map (map snd) cs) = repeat false w.
Proof.
  (* split the rows around `index`; the accumulator that replaces the bits of that row is the col_xor of all other rows
     (fold_symmetric turns the model's fold_left into col_xor's fold_right), and x xor x = 0 *)
  unfold create_card_secret. destruct (Nat.ltb_spec index (length ms)) as [Hi|]; cbn [negb]; [|discriminate].
  destruct (qr_rows 0 ms w index s) as [[rows s1]| | | | |] eqn:R; cbn [bind fst snd]; try discriminate.
  apply qr_rows_spec in R. destruct R as (L & F & H).
  unfold fix_index_row. destruct (nth_error rows index) as [irow|] eqn:E; cbv beta iota delta [bind]; [|discriminate].
  pose proof (H index irow E eq_refl) as Hb. apply nth_error_firstn_skipn in E.
  set (pre := firstn index rows) in *. set (post := skipn (S index) rows) in *. clearbody pre post. subst rows.
  intros E'. injection E' as <- <-.
  apply Forall_app in F. destruct F as (F1 & F2). inversion F2 as [|? ? Li F2']; subst.
  assert (FB : Forall (fun r => length r = length irow) (map (map snd) (pre ++ post))).
  { rewrite Forall_map. apply Forall_app. split; eapply Forall_impl; try eassumption; cbn; intros r Hr; now rewrite map_length. }
  set (acc := fold_left _ (pre ++ post) (map snd irow)).
  assert (Eacc : acc = col_xor (length irow) (map (map snd) (pre ++ post))).
  { unfold acc. rewrite fold_left_vxb, Hb. unfold col_xor. apply fold_symmetric; [intros; apply vxor_assoc | intros; apply vxor_comm]. }
  assert (Lacc : length acc = length irow) by (rewrite Eacc; now apply col_xor_length).
  repeat split.
  - exact Hi.
  - rewrite <- L. rewrite !app_length. reflexivity.
  - apply Forall_app. split; [assumption|]. constructor; [|assumption].
    rewrite combine_length, map_length, Lacc. lia.
  - rewrite map_app. cbn [map]. rewrite map_snd_combine by (now rewrite map_length).
    rewrite col_xor_move. rewrite <- map_app. rewrite <- Eacc.
    rewrite vxor_self. now rewrite Lacc.
Qed.
