(* C12 -- Untrusted input never corrupts memory or kills the process.
   Partial by nature: these theorems cover the modelled index / length logic of the receiving side (for ALL inputs);
   memory safety of the process itself is explored by sanitizer-backed testing (harness/c12.cc).
   The property theorems, each closed by `exact <lemma>` and followed by Print Assumptions, then examples. *)
From Coq Require Import ZArith NArith List Lia.
From LT Require Import gen_Consts gen_Tables CodecModel PgpLenModel PgpLenLemmas PgpLenCodecLemmas.
Import ListNotations.
Local Open Scope N_scope.

Theorem C12_length_header_within : forall inp nf lt hl len part,
  packet_length_decode inp nf lt = LenOk hl len part -> (1 <= hl <= length inp)%nat /\ (hl <= 5)%nat.
Proof. exact length_decode_within. Qed.
Print Assumptions C12_length_header_within.

Theorem C12_partial_length_consumes_one : forall inp nf lt hl len,
  packet_length_decode inp nf lt = LenOk hl len true -> hl = 1%nat /\ nf = true.
Proof. exact length_decode_partial. Qed.
Print Assumptions C12_partial_length_consumes_one.

Theorem C12_packet_frame_within : forall inp tag nf indet body rest cur,
  packet_decode_frame inp = FrameOk tag nf indet body rest cur ->
  cur ++ rest = inp /\ (length rest < length inp)%nat /\ (length body <= length inp)%nat.
Proof. exact frame_prefix_ok. Qed.
Print Assumptions C12_packet_frame_within.

Theorem C12_packet_frame_error_within : forall inp rest cur,
  packet_decode_frame inp = FrameErr rest cur -> cur ++ rest = inp.
Proof. exact frame_prefix_err. Qed.
Print Assumptions C12_packet_frame_error_within.

(* termination: every iteration of the partial-length loop consumes at least one octet, so length(input)+1
   iterations always suffice (the model never runs out of fuel) *)
Theorem C12_packet_frame_terminates : forall inp, packet_decode_frame inp <> FrameFuel.
Proof. exact frame_fuel_suffices. Qed.
Print Assumptions C12_packet_frame_terminates.

Theorem C12_body_extract_terminates : forall inp, packet_body_extract inp <> None.
Proof. exact body_extract_total. Qed.
Print Assumptions C12_body_extract_terminates.

Theorem C12_body_extract_bounded : forall inp r body,
  packet_body_extract inp = Some (r, body) -> (length body <= length inp)%nat.
Proof. exact body_extract_bounded. Qed.
Print Assumptions C12_body_extract_bounded.

Theorem C12_mpi_within : forall inp s c v s', mpi_decode inp s = MpiOk c v s' -> (2 <= c <= length inp)%nat.
Proof. exact mpi_within. Qed.
Print Assumptions C12_mpi_within.

Theorem C12_mpi_value_fits : forall inp s c v s', Forall (fun b => b < 256) inp ->
  mpi_decode inp s = MpiOk c v s' -> v < 2 ^ (8 * N.of_nat (c - 2)).
Proof. exact mpi_value_bound. Qed.
Print Assumptions C12_mpi_value_fits.

Theorem C12_subpacket_header_within : forall inp hl len crit ty,
  subpacket_header inp = SubOk hl len crit ty -> (2 <= hl <= length inp)%nat.
Proof. exact subpacket_header_inside. Qed.
Print Assumptions C12_subpacket_header_within.

(* the body slice lies inside the input -- only when headlen + len does not wrap in uint32_t *)
Theorem C12_subpacket_slice_within_partial : forall inp hl len crit ty,
  subpacket_header inp = SubOk hl len crit ty -> N.of_nat hl + len < 4294967296 -> N.of_nat hl + len <= lenN inp.
Proof. exact subpacket_within_partial. Qed.
Print Assumptions C12_subpacket_slice_within_partial.

(* the full statement is false for the code as it is: a five-octet length of 0xFFFFFFFF passes the size test *)
Theorem C12_subpacket_slice_within_refuted :
  exists inp, Forall (fun b => b < 256) inp /\ sub_slice_inside inp (subpacket_header inp) = false.
Proof. exact subpacket_within_refuted. Qed.
Print Assumptions C12_subpacket_slice_within_refuted.

Theorem C12_radix64_index_in_table : forall b,
  not_radix64 b = false \/ b = 61 -> char_index b < N.of_nat (length src_fRadix64).
Proof. exact radix64_index_in_table. Qed.
Print Assumptions C12_radix64_index_in_table.

Theorem C12_radix64_decode_total : forall s, radix64_decode s <> None.
Proof. exact radix64_decode_total. Qed.
Print Assumptions C12_radix64_decode_total.

Theorem C12_radix64_decode_bounded : forall s o,
  radix64_decode s = Some o -> (length o <= 3 * Nat.div (length s + 3) 4)%nat.
Proof. exact radix64_decode_length. Qed.
Print Assumptions C12_radix64_decode_bounded.

Theorem C12_import_card_dimensions : forall s c, import_tcard s = Some c ->
  (1 <= length c <= Z.to_nat TMCG_MAX_PLAYERS)%nat /\
  exists w, (1 <= w <= Z.to_nat TMCG_MAX_TYPEBITS)%nat /\ Forall (fun row => length row = w) c.
Proof. exact import_tcard_dims. Qed.
Print Assumptions C12_import_card_dimensions.

Theorem C12_import_stack_size : forall s st,
  import_vstack [] s = Some st -> (1 <= length st <= Z.to_nat TMCG_MAX_CARDS)%nat.
Proof. exact import_vstack_size. Qed.
Print Assumptions C12_import_stack_size.

Theorem C12_import_stacksecret_indices : forall s ss, import_vstacksecret [] s = Some ss ->
  (1 <= length ss <= Z.to_nat TMCG_MAX_CARDS)%nat /\ Forall (fun p => fst p < N.of_nat (length ss)) ss.
Proof. exact import_vstacksecret_indices. Qed.
Print Assumptions C12_import_stacksecret_indices.

(* cut-and-choose verifier: a received secret that passed the size guard indexes only inside the stacks *)
Theorem C12_mixstack_indices_in_range : forall (s : list (Z * Z)) text ss,
  import_vstacksecret [] text = Some ss -> mix_guard s ss = true -> mix_indices_ok s ss = true.
Proof. exact mix_indices_in_range. Qed.
Print Assumptions C12_mixstack_indices_in_range.

(* ... and without the guard (the tree before fix 517d04b) it does not *)
Theorem C12_mixstack_without_guard_refuted : exists (s : list (Z * Z)) text ss,
  import_vstacksecret [] text = Some ss /\ mix_guard s ss = false /\ mix_indices_ok s ss = false.
Proof. exact mix_without_guard_refuted. Qed.
Print Assumptions C12_mixstack_without_guard_refuted.

(* a literal-data packet (new format, tag 11) with one 512-octet partial chunk and a final chunk of 2 octets *)
Example C12_nonvacuous_partial_frame :
  exists body rest cur, packet_decode_frame ([203; 233] ++ repeat 7 512 ++ [2; 1; 2; 99]) = FrameOk 11 true false body rest cur
                        /\ length body = 514%nat /\ rest = [99].
Proof. eexists _, _, _. split; [vm_compute; reflexivity|split; reflexivity]. Qed.
Example C12_nonvacuous_mpi : mpi_decode [0; 9; 1; 255; 7] 0 = MpiOk 4 511 265.
Proof. reflexivity. Qed.
Example C12_nonvacuous_subpacket : subpacket_header [5; 130; 1; 2; 3; 4; 9] = SubOk 2 4 true 2.
Proof. reflexivity. Qed.
Example C12_nonvacuous_radix64 : radix64_decode [84; 87; 70; 117] = Some [77; 97; 110].
Proof. vm_compute. reflexivity. Qed.
Example C12_nonvacuous_stacksecret :
  import_vstacksecret [] (export_vstacksecret [(1, 7%Z); (0, 8%Z)]) = Some [(1, 7%Z); (0, 8%Z)].
Proof. vm_compute. reflexivity. Qed.
