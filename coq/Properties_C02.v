(* C02 -- A shuffle is exactly a permutation plus re-masking.
   Each property theorem is closed by `exact <lemma>` and followed by Print Assumptions; the Examples at the end are concrete instances.
   `mask` / `open` / `addsec` are arbitrary (universally quantified) card operations; the premises about them
   (opening ignores masking -- C01; masking twice = masking with the combined secret) appear in the statements
   and are proved for both encodings in C02_vtmf_remask_homomorphic / C02_qr_mask_homomorphic. *)
From Coq Require Import ZArith NArith List Bool Lia Permutation.
From LT Require Import gen_Consts Zbase CodecModel SamplerModel SamplerLemmas ShuffleModel ShuffleLemmas ShuffleQrModel ShuffleQrLemmas.
Import ListNotations.
Local Open Scope N_scope.

Theorem C02_mix_length : forall (card secret : Type) (mask : card -> secret -> card) s ss s2,
  mix card secret mask s ss = Ret s2 -> (length s <= max_cards)%nat -> length s2 = length s.
Proof. exact mix_length. Qed.
Print Assumptions C02_mix_length.

(* card i of the mixed stack = input card ss[i].first, re-masked with the secret stored at position ss[i].first *)
Theorem C02_mix_nth : forall (card secret : Type) (mask : card -> secret -> card) s ss s2 i,
  mix card secret mask s ss = Ret s2 -> (i < length s)%nat -> (i < max_cards)%nat ->
  exists j r0 c j' r, nth_error ss i = Some (j, r0) /\ nthN s j = Some c /\ nthN ss j = Some (j', r) /\
                      nth_error s2 i = Some (mask c r).
Proof. exact mix_nth. Qed.
Print Assumptions C02_mix_nth.

Theorem C02_mix_total : forall (card secret : Type) (mask : card -> secret -> card) s ss,
  length s = length ss -> in_range secret (length s) ss -> exists s2, mix card secret mask s ss = Ret s2.
Proof. exact mix_total. Qed.
Print Assumptions C02_mix_total.

Theorem C02_mix_returns_only_in_range : forall (card secret : Type) (mask : card -> secret -> card) s ss s2,
  mix card secret mask s ss = Ret s2 -> length s = length ss /\ in_range secret (length s) ss.
Proof. exact mix_ret_in_range. Qed.
Print Assumptions C02_mix_returns_only_in_range.

Theorem C02_mix_wrong_size_aborts : forall (card secret : Type) (mask : card -> secret -> card) s ss,
  length s <> length ss -> mix card secret mask s ss = AssertFail.
Proof. exact mix_assert. Qed.
Print Assumptions C02_mix_wrong_size_aborts.

(* the call as made by the code (clear the result object, then bounded pushes): the result does not depend on the
   previous content of the result stack -- it is a function of (s, ss) only *)
Theorem C02_mix_result_independent_of_old_content : forall (card secret : Type) (mask : card -> secret -> card) old s ss,
  mix_into card secret mask old s ss = mix card secret mask s ss.
Proof. exact mix_into_ignores_old. Qed.
Print Assumptions C02_mix_result_independent_of_old_content.

(* the i-th card opens to the type of the designated input card *)
Theorem C02_mix_type_nth : forall (card secret : Type) (mask : card -> secret -> card) (T : Type) (open : card -> T),
  (forall c r, open (mask c r) = open c) ->
  forall s ss s2 i, mix card secret mask s ss = Ret s2 -> (i < length s)%nat -> (i < max_cards)%nat ->
  exists j r0 c, nth_error ss i = Some (j, r0) /\ nthN s j = Some c /\ nth_error (map open s2) i = Some (open c).
Proof. exact mix_type_nth. Qed.
Print Assumptions C02_mix_type_nth.

(* the multiset of card types is preserved *)
Theorem C02_mix_types_perm : forall (card secret : Type) (mask : card -> secret -> card) (T : Type) (open : card -> T),
  (forall c r, open (mask c r) = open c) ->
  forall s ss s2, mix card secret mask s ss = Ret s2 -> (length s <= max_cards)%nat ->
  Permutation (map fst ss) (iota (length s)) -> Permutation (map open s2) (map open s).
Proof. exact mix_types_perm. Qed.
Print Assumptions C02_mix_types_perm.

(* composition of two shuffles (what the cut-and-choose prover relies on) *)
Theorem C02_glue_ok : forall (card secret : Type) (mask : card -> secret -> card) (addsec : secret -> secret -> secret),
  (forall c r1 r2, mask (mask c r1) r2 = mask c (addsec r1 r2)) ->
  forall s sigma pi n, length s = n -> length sigma = n -> length pi = n -> (n <= max_cards)%nat ->
  Permutation (map fst sigma) (iota n) -> in_range secret n pi ->
  exists s1 gam s2, mix card secret mask s sigma = Ret s1 /\ glue secret addsec sigma pi = Ret gam /\
                    mix card secret mask s1 pi = Ret s2 /\ mix card secret mask s gam = Ret s2.
Proof. exact glue_ok. Qed.
Print Assumptions C02_glue_ok.

Theorem C02_glue_perm : forall (secret : Type) (addsec : secret -> secret -> secret) sigma pi gam n,
  glue secret addsec sigma pi = Ret gam -> (n <= max_cards)%nat ->
  Permutation (map fst sigma) (iota n) -> Permutation (map fst pi) (iota n) -> Permutation (map fst gam) (iota n).
Proof. exact glue_perm. Qed.
Print Assumptions C02_glue_perm.

Theorem C02_vtmf_remask_homomorphic : forall p q g h c r1 r2, (1 < p)%Z -> (0 < q)%Z -> powm g q p = 1%Z -> powm h q p = 1%Z ->
  (0 <= r1)%Z -> (0 <= r2)%Z -> vmask p g h (vmask p g h c r1) r2 = vmask p g h c (vadd q r1 r2).
Proof. exact vmask_vmask. Qed.
Print Assumptions C02_vtmf_remask_homomorphic.

Theorem C02_qr_mask_homomorphic : forall m y z s1 s2, (0 < m)%Z -> qmask m y (qmask m y z s1) s2 = qmask m y z (qadd m y s1 s2).
Proof. exact qmask_qmask. Qed.
Print Assumptions C02_qr_mask_homomorphic.

Theorem C02_vtmf_glue_ok : forall p q g h, (1 < p)%Z -> (0 < q)%Z -> powm g q p = 1%Z -> powm h q p = 1%Z ->
  forall s sigma pi n, length s = n -> length sigma = n -> length pi = n -> (n <= max_cards)%nat ->
  Permutation (map fst sigma) (iota n) -> in_range N n pi ->
  exists s1 gam s2, mix (Z * Z) N (vmaskN p g h) s sigma = Ret s1 /\ glue N (vaddN q) sigma pi = Ret gam /\
                    mix (Z * Z) N (vmaskN p g h) s1 pi = Ret s2 /\ mix (Z * Z) N (vmaskN p g h) s gam = Ret s2.
Proof. exact vtmf_glue_ok. Qed.
Print Assumptions C02_vtmf_glue_ok.

(* QR encoding: TMCG_CreateCardSecret for every ring, width, index and coin list -- the compensation row makes every
   column of secret bits XOR to zero, which is what keeps the card type under masking (TMCG_TypeOfCard XORs the columns) *)
Theorem C02_qr_card_secret_columns_xor_zero : forall ms w index s cs s', create_card_secret ms w index s = Ret (cs, s') ->
  (index < length ms)%nat /\ length cs = length ms /\ Forall (fun r => length r = w) cs /\
  col_xor w (map (map snd) cs) = repeat false w.
Proof. exact create_card_secret_col_xor. Qed.
Print Assumptions C02_qr_card_secret_columns_xor_zero.

(* for EVERY coin list: whatever Fisher-Yates returns is a bijection on {0..n-1} *)
Theorem C02_fisher_yates_perm : forall n s pi s', random_permutation_fast n s = Ret (pi, s') -> Permutation (iota n) pi.
Proof. exact random_permutation_fast_perm. Qed.
Print Assumptions C02_fisher_yates_perm.

(* for n >= 1 it never leaves the vector and never throws; it can only ask for more coins *)
Theorem C02_fisher_yates_no_ub : forall n s, (1 <= n)%nat ->
  match random_permutation_fast n s with Ret _ | NeedCoins => True | _ => False end.
Proof. exact random_permutation_fast_outcomes. Qed.
Print Assumptions C02_fisher_yates_no_ub.

Theorem C02_rotation_is_shift : forall n r, small_n n -> r < N.of_nat n ->
  let a := N.to_nat r in
  iota n = map N.of_nat (seq 0 a) ++ map N.of_nat (seq a (n - a)) /\
  rotation n r = map N.of_nat (seq a (n - a)) ++ map N.of_nat (seq 0 a).
Proof. exact rotation_is_shift. Qed.
Print Assumptions C02_rotation_is_shift.

Theorem C02_rotation_offset_lands : forall n r i, small_n n -> r < N.of_nat n -> (i < n)%nat ->
  nth_error (rotation n r) (N.to_nat ((N.of_nat i + rotation_offset n r) mod N.of_nat n)) = Some (N.of_nat i).
Proof. exact rotation_offset_lands. Qed.
Print Assumptions C02_rotation_offset_lands.

Theorem C02_max_cards_small : forall n, (n <= max_cards)%nat -> small_n n.
Proof. exact max_cards_small. Qed.
Print Assumptions C02_max_cards_small.

(* TMCG_CreateStackSecret (VTMF encoding), every coin list, both modes *)
Theorem C02_create_stack_secret : forall cyclic n q s o ss s', create_stack_secret cyclic n q s = Ret ((o, ss), s') ->
  (n <= max_cards)%nat /\ length ss = n /\ Permutation (map fst ss) (iota n) /\
  Forall (fun p => 2 <= snd p < Z.abs q)%Z ss /\
  (if cyclic then (2 <= n)%nat /\ exists r, r < N.of_nat n /\ map fst ss = rotation n r /\ o = rotation_offset n r
   else (1 <= n)%nat /\ o = 0).
Proof. exact create_stack_secret_spec. Qed.
Print Assumptions C02_create_stack_secret.

Theorem C02_import_check_iff : forall (A : Type) (l : list (N * A)),
  perm_check l (N.of_nat (length l)) = true <-> Permutation (map fst l) (iota (length l)).
Proof. exact @import_check_iff. Qed.
Print Assumptions C02_import_check_iff.

Theorem C02_import_accepts_only_bijections : forall t ss, import_vstacksecret [] t = Some ss ->
  Permutation (map fst ss) (iota (length ss)) /\ (1 <= length ss <= max_cards)%nat.
Proof. exact import_accepts_only_bijections. Qed.
Print Assumptions C02_import_accepts_only_bijections.

Theorem C02_import_refuses_non_bijections : forall t r0 n r1 ps rest,
  cm t magic_sts hat = Some r0 -> import_size r0 = Some (n, r1) -> read_pairs n (N.to_nat n) r1 = Some (ps, rest) ->
  ~ Permutation (map fst ps) (iota (N.to_nat n)) -> import_vstacksecret [] t = None.
Proof. exact import_refuses_non_bijections. Qed.
Print Assumptions C02_import_refuses_non_bijections.

(* importing into a USED object appends and then checks the wrong thing: the statement is about fresh objects *)
Example C02_import_used_object_refuted :
  import_vstacksecret [(0, 5%Z)] (export_vstacksecret [(0, 7%Z)]) = Some [(0, 5%Z); (0, 7%Z)].
Proof. vm_compute. reflexivity. Qed.

(* non-vacuity: a real (tiny) group p = 23, q = 11, g = 2, h = 4; a shuffle, a glue, a generated secret *)
Example C02_nonvacuous_group : powm 2 11 23 = 1%Z /\ powm 4 11 23 = 1%Z.
Proof. vm_compute. auto. Qed.
Example C02_nonvacuous_mix :
  vmix 23 2 4 [(2, 3); (4, 9); (8, 13)]%Z [(2, 5%Z); (0, 3%Z); (1, 7%Z)] = Ret [(12, 12); (18, 13); (9, 1)]%Z.
Proof. vm_compute. reflexivity. Qed.
Example C02_nonvacuous_glue :
  vglue 11 [(2, 5%Z); (0, 3%Z); (1, 7%Z)] [(1, 2%Z); (2, 4%Z); (0, 10%Z)] = Ret [(0, 9%Z); (1, 2%Z); (2, 9%Z)].
Proof. vm_compute. reflexivity. Qed.
Example C02_nonvacuous_create :
  create_stack_secret false 2 11 (repeat 1 8 ++ repeat 3 18) = Ret ((0, [(1, 10%Z); (0, 10%Z)]), []).
Proof. vm_compute. reflexivity. Qed.
Example C02_nonvacuous_create_cyclic :
  create_stack_secret true 3 11 (repeat 1 8 ++ repeat 3 27) = Ret ((1, [(2, 10%Z); (0, 10%Z); (1, 10%Z)]), []).
Proof. vm_compute. reflexivity. Qed.
Example C02_nonvacuous_in_range : in_range Z 3 [(2, 5%Z); (0, 3%Z); (1, 7%Z)].
Proof. repeat constructor. Qed.
Example C02_nonvacuous_qr_secret :
  create_card_secret [7%Z; 11%Z; 13%Z] 1 1 (repeat 0 8 ++ [3; 1] ++ repeat 0 8 ++ [2] ++ repeat 0 8 ++ [5; 0])
  = Ret ([[(3%Z, true)]; [(2%Z, true)]; [(5%Z, false)]], []).
Proof. vm_compute. reflexivity. Qed.
Example C02_nonvacuous_qr_mask :
  qmask_card [(77,6);(221,5)]%Z [[2;3];[4;5]]%Z [[(2,true);(3,false)];[(5,false);(6,true)]]%Z = Ret [[48; 27]; [100; 16]]%Z.
Proof. vm_compute. reflexivity. Qed.
