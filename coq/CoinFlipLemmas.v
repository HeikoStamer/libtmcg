(* CoinFlipLemmas: the two-party coin flip of CoinFlipModel (C17): the Pedersen commitment is binding (extractor) and hiding,
   every run of flip2 commits before it reveals, a coin comes only from an in-range opening of the stored commitment,
   two honest parties get the same coin; the complaint rule of the n-party decision part. *)
From Coq Require Import ZArith NArith Znumtheory List Bool Lia.
From LT Require Import gen_Consts Zbase CodecModel CodecLemmas CoinFlipArith CoinFlipModel.
Import ListNotations.
Local Open Scope Z_scope.

(* a well-formed common reference string: what CheckGroup establishes (p, q prime are checked there
   probabilistically; only the primality of q and 1 < p are used below) *)
Definition valid (G : group) : Prop :=
  1 < gp G /\ prime (gq G) /\ bitlen (gq G) <= TMCG_MAX_FPOWM_T /\
  in_sub (gp G) (gq G) (gg G) /\ in_sub (gp G) (gq G) (gh G) /\ gg G mod gp G <> 1.

(* the mathematical opening relation: C = g^a h^b in the order-q subgroup (exponents modulo q) *)
Definition opens (G : group) (C a b : Z) : Prop :=
  (powm (gg G) (a mod gq G) (gp G) * powm (gh G) (b mod gq G) (gp G)) mod gp G = C.

Lemma bitlen_mono x y : 0 <= x <= y -> bitlen x <= bitlen y.
Proof.
  intros H. unfold bitlen. destruct (Z.eqb_spec x 0), (Z.eqb_spec y 0); try lia.
  - pose proof (Z.log2_nonneg y). lia.
  - pose proof (Z.log2_le_mono x y). lia.
Qed.

Lemma bitlen_pos x : 1 <= bitlen x.
Proof. unfold bitlen. destruct (x =? 0); [lia|]. pose proof (Z.log2_nonneg x). lia. Qed.

Lemma table_bits_eq G : bitlen (gq G) <= TMCG_MAX_FPOWM_T -> table_bits G = bitlen (gq G).
Proof. unfold table_bits. lia. Qed.

Section Grp.
  Variable G : group.
  Hypothesis V : valid G.
  Let p := gp G.
  Let q := gq G.

  Lemma valid_p : 1 < p. Proof. apply V. Qed.
  Lemma valid_q : 1 < q. Proof. apply prime_gt1, V. Qed.

  Lemma fspowm_sub b x : in_sub p q b -> Z.abs x < q ->
    fspowm (table_bits G) b x p = Some (powm b (x mod q) p).
  Proof.
    intros Hb Hx. pose proof valid_p as Hp. pose proof valid_q as Hq.
    unfold fspowm. rewrite table_bits_eq by apply V. fold q.
    assert (B1 : bitlen (Z.abs x) <= bitlen q) by (apply bitlen_mono; lia).
    destruct V as (_ & _ & B & _). fold q in B.
    destruct (Z.gtb_spec (bitlen (Z.abs x)) TMCG_MAX_FPOWM_T); [lia|].
    destruct (Z.leb_spec (bitlen (Z.abs x)) (bitlen q)); [|lia].
    rewrite (sub_invm_mod p q Hp Hq) by (assumption || lia).
    f_equal. destruct (Z.ltb_spec x 0).
    - rewrite Z.abs_neq, Z.opp_involutive by lia. apply Z.mod_small, subexp_range; assumption.
    - rewrite Z.abs_eq, (Z.mod_small x q) by lia. apply Z.mod_small, powm_range; lia.
  Qed.

  Lemma commit_sub a b : Z.abs a < q -> Z.abs b < q ->
    commit G a b = Some ((powm (gg G) (a mod q) p * powm (gh G) (b mod q) p) mod p).
  Proof.
    intros Ha Hb. unfold commit. fold p.
    destruct V as (_ & _ & _ & Hg & Hh & _). fold p q in Hg, Hh.
    rewrite (fspowm_sub _ _ Hg Ha), (fspowm_sub _ _ Hh Hb). reflexivity.
  Qed.

  (* an in-range pair commits to exactly the values it opens *)
  Lemma commit_opens a b lhs C : Z.abs a < q -> Z.abs b < q -> commit G a b = Some lhs -> (lhs = C <-> opens G C a b).
  Proof. intros Ha Hb. rewrite commit_sub by assumption. intros [= <-]. reflexivity. Qed.

  Lemma check_element_small C : check_element G C = true -> C mod p = C.
  Proof. unfold check_element. intros E. apply Z.mod_small. fold p in E. lia. Qed.

  Lemma check_element_commit a b :
    check_element G ((powm (gg G) (a mod q) p * powm (gh G) (b mod q) p) mod p) = true.
  Proof.
    pose proof valid_p as Hp. pose proof valid_q as Hq. destruct V as (_ & _ & _ & Hg & Hh & _). fold p q in Hg, Hh.
    set (C := (_ * _) mod p).
    assert (HC : in_sub p q C).
    { apply in_sub_mul; try apply in_sub_pow; try apply Z.mod_pos_bound; assumption || lia. }
    pose proof (in_sub_nonzero p q Hp Hq C HC) as NZ. assert (R : 0 <= C < p) by (apply Z.mod_pos_bound; lia).
    rewrite Z.mod_small in NZ by lia.
    unfold check_element. fold p q. rewrite HC. lia.
  Qed.

  (* x^e in the subgroup, e any integer: CoinFlipArith.subexp for the group G, whose lemmas are used *)
  Definition gexp (x e : Z) : Z := powm x (e mod q) p.

  Lemma gexp_range x e : 0 <= gexp x e < p.
  Proof. apply subexp_range; [apply valid_p|apply valid_q]. Qed.

  Lemma subexp_g_inj e1 e2 : subexp p q (gg G) e1 = subexp p q (gg G) e2 -> e1 mod q = e2 mod q.
  Proof.
    pose proof valid_q. destruct V as (Hp & Pq & _ & Hg & _ & G1).
    apply (powm_inj_small p q (gg G) Hp Pq Hg G1); apply Z.mod_pos_bound; lia.
  Qed.

  (* binding reduction: two openings of one commitment with different values give log_g h *)
  Theorem binding_extract C a1 b1 a2 b2 : opens G C a1 b1 -> opens G C a2 b2 ->
    a1 mod q <> a2 mod q ->
    exists x, extract_log q a1 b1 a2 b2 = Some x /\ 0 <= x < q /\ powm (gg G) x p = gh G mod p.
  Proof.
    intros O1 O2 Na. pose proof valid_q as Hq. destruct V as (_ & Pq & _ & Hg & Hh & _). fold p q in Hg, Hh, Pq.
    pose proof (subexp_cancel p q valid_p Hq _ _ _ _ _ _ Hg Hh (eq_trans O1 (eq_sym O2))) as E.
    (* b2 - b1 is a unit: otherwise g^(a1-a2) = 1 *)
    assert (Nd : ((b2 - b1) mod q) mod q <> 0).
    { rewrite Zmod_mod. intros D0. apply Na, mod_sub_0, (subexp_g_inj _ 0). rewrite E. unfold subexp. now rewrite D0. }
    destruct (invm_prime _ q Pq Nd) as [iv Hiv]. destruct (invm_inverse _ _ _ Hq Hiv) as [Riv Eiv].
    unfold extract_log. rewrite Hiv. eexists. split; [reflexivity|]. split; [apply Z.mod_pos_bound; lia|].
    (* raise both sides to the inverse *)
    apply (f_equal (fun z => powm z iv p)) in E. rewrite !(subexp_powm p q valid_p Hq) in E by (assumption || lia).
    unfold subexp in E. now rewrite <- (Zmult_mod_idemp_l (b2 - b1)), Eiv, <- (Zmult_mod_idemp_l (a1 - a2)) in E.
  Qed.

  (* perfect hiding: if h = g^x with x a unit modulo q, every value a' is consistent with a
     given commitment (so what the peer sends after seeing only the commitment carries no
     information about a) *)
  Theorem commit_hiding x a b a' : 0 <= x -> x mod q <> 0 -> gh G mod p = powm (gg G) x p ->
    exists b', 0 <= b' < q /\ forall C, opens G C a b -> opens G C a' b'.
  Proof.
    intros Hx Nx Hh. pose proof valid_p as Hp. pose proof valid_q as Hq.
    destruct V as (_ & Pq & _ & Hg & _). fold p q in Hg, Pq.
    rewrite <- (Zmod_mod x q) in Nx. destruct (invm_prime _ q Pq Nx) as [iv Hiv].
    destruct (invm_inverse _ _ _ Hq Hiv) as [_ Eiv]. rewrite Zmult_mod_idemp_l in Eiv.
    exists ((b + (a - a') * iv) mod q). split; [apply Z.mod_pos_bound; lia|].
    intros C O. unfold opens in *. fold p q in O |- *. rewrite <- O. clear O.
    (* h^e = g^(x e) *)
    assert (HE : forall e, powm (gh G) (e mod q) p = subexp p q (gg G) (x * e)).
    { intros e. pose proof (Z.mod_pos_bound e q ltac:(lia)).
      rewrite <- powm_base_mod, Hh, <- powm_mul, (powm_subexp p q Hp Hq) by (assumption || nia).
      apply subexp_congr, Zmult_mod_idemp_r. }
    rewrite !HE. fold (subexp p q (gg G) a') (subexp p q (gg G) a). rewrite <- !(subexp_add p q Hp Hq) by assumption. apply subexp_congr.
    rewrite <- Zplus_mod_idemp_r, Zmult_mod_idemp_r, Zplus_mod_idemp_r. apply mod_sub_0.
    replace (a' + x * (b + (a - a') * iv) - (a + x * b)) with ((a - a') * (x * iv - 1)) by ring.
    now rewrite <- Zmult_mod_idemp_r, Zminus_mod, Eiv, Z.mod_1_l, Z.mul_0_r by lia.
  Qed.
End Grp.

Definition is_send (e : event) : bool := match e with Send _ => true | Recv _ => false end.

(* shape of every run of flip2, for every peer: nothing happens, or the run ends after the peer's first line
   without a coin, or that line was a group element and nothing is sent after the opening *)
Inductive run_shape (G : group) (P : peer) : list event -> outcome -> Prop :=
| rs_nil : run_shape G P [] Throw
| rs_commit C out : (forall C', parse (P [Send C]) = PVal C' -> check_element G C' = false) -> (forall z, out <> Coin z) ->
    run_shape G P [Send C; Recv (P [Send C])] out
| rs_open C C' sa sb rest out : parse (P [Send C]) = PVal C' -> check_element G C' = true ->
    forallb (fun e => negb (is_send e)) rest = true ->
    run_shape G P ([Send C; Recv (P [Send C]); Send sa; Send sb] ++ rest) out.

Lemma flip2_shape G a b f fr P : run_shape G P (fst (flip2 G a b f fr P)) (snd (flip2 G a b f fr P)).
Proof.
  unfold flip2. destruct (commit G a b) as [C0|]; [|constructor].
  set (C := C0 + b2z f). destruct (parse (P [Send C])) as [C'| |] eqn:P1; cbn [fst snd app];
    try (constructor; [congruence|discriminate]).
  destruct (check_element G C') eqn:CE; cbn [negb fst snd app].
  2: { constructor; [congruence|discriminate]. }
  assert (S : forall rest (out : outcome), forallb (fun e => negb (is_send e)) rest = true ->
            let r := ([Send C; Recv (P [Send C]); Send (a + b2z f); Send (b + b2z (f && fr))] ++ rest, out) in
            run_shape G P (fst r) (snd r)).
  { intros rest out Hr. apply (rs_open G P C C'); auto. }
  (* whatever the remaining tests of flip2 say, every branch only appends Recv events to t3 *)
  repeat match goal with
  | |- context [match ?x with _ => _ end] => destruct x
  end; apply S; reflexivity.
Qed.

(* commit before reveal: any Send other than the first event comes after the receipt (at position 1)
   of a well-formed peer commitment, and that message was computed by the peer from the party's
   commitment alone *)
Theorem commit_before_reveal G a b f fr P tr out : flip2 G a b f fr P = (tr, out) ->
  forall k v, nth_error tr k = Some (Send v) -> (k <> 0)%nat ->
  exists C m C', nth_error tr 0 = Some (Send C) /\ nth_error tr 1 = Some (Recv m) /\ (1 < k)%nat /\
                 m = P [Send C] /\ parse m = PVal C' /\ check_element G C' = true.
Proof.
  intros E k v Hk K0. pose proof (flip2_shape G a b f fr P) as S. rewrite E in S. cbn [fst snd] in S.
  inversion S as [|C o Hm Ho|C C' sa sb rest o HP HC Hr]; subst.
  - destruct k; discriminate.
  - destruct k as [|[|[|k]]]; try discriminate; lia.
  - exists C, (P [Send C]), C'. repeat split; try assumption.
    destruct k as [|[|k]]; [lia|discriminate|lia].
Qed.

(* nothing but the commitment is written when the peer's first message is missing or unusable *)
Theorem withheld_commitment G a b f fr P tr out : flip2 G a b f fr P = (tr, out) ->
  (forall C', parse (P (firstn 1 tr)) = PVal C' -> check_element G C' = false) ->
  (length (sends tr) <= 1)%nat /\ forall z, out <> Coin z.
Proof.
  intros E H. pose proof (flip2_shape G a b f fr P) as S. rewrite E in S. cbn [fst snd] in S.
  inversion S as [|C o Hm Ho|C C' sa sb rest o HP HC Hr]; subst; cbn [sends flat_map app length].
  - split; [lia|discriminate].
  - split; [lia|assumption].
  - rewrite (H C' HP) in HC. discriminate.
Qed.

(* closes a branch of flip2 whose outcome is not the one assumed *)
Ltac disc := let X := fresh in intro X; discriminate X.

(* whenever a coin is output: the three lines read were a subgroup element C' and an in-range
   opening of exactly C', and the coin is the sum *)
Theorem flip2_coin_sound G a b fr P tr z : valid G -> flip2 G a b false fr P = (tr, Coin z) ->
  exists C C' a' b' m1 m2 m3,
    tr = [Send C; Recv m1; Send a; Send b; Recv m2; Recv m3] /\
    commit G a b = Some C /\
    parse m1 = PVal C' /\ parse m2 = PVal a' /\ parse m3 = PVal b' /\
    check_element G C' = true /\ Z.abs a' < gq G /\ Z.abs b' < gq G /\
    opens G C' a' b' /\ z = (a + a') mod gq G.
Proof.
  intros V. unfold flip2. destruct (commit G a b) as [C0|]; [|disc].
  cbn [b2z andb]. rewrite !Z.add_0_r.
  set (m1 := P [Send C0]). destruct (parse m1) as [C'| |] eqn:P1; try disc.
  destruct (check_element G C') eqn:CE; cbn [negb]; [|disc].
  cbn [app]. set (t3 := [Send C0; Recv m1; Send a; Send b]).
  set (m2 := P t3). destruct (parse m2) as [a'| |] eqn:P2; try disc.
  destruct (Z.geb_spec (Z.abs a') (gq G)); [disc|].
  set (m3 := P [Send C0; Recv m1; Send a; Send b; Recv m2]). destruct (parse m3) as [b'| |] eqn:P3; try disc.
  destruct (Z.geb_spec (Z.abs b') (gq G)); [disc|].
  destruct (commit G a' b') as [lhs|] eqn:CM; [|disc].
  destruct (Z.eqb_spec lhs (C' mod gp G)) as [EQ|]; [|disc].
  intros [= <- <-]. exists C0, C', a', b', m1, m2, m3.
  rewrite (check_element_small G C' CE) in EQ. apply (commit_opens G V a' b') in EQ; try assumption.
  rewrite Zplus_mod_idemp_l. repeat split; assumption || reflexivity.
Qed.

(* an opening that is out of range or does not match the stored commitment is rejected.
   m1, m2, m3 are the peer's three answers (to the party's commitment, to its opening, and the next line) *)
Theorem flip2_bad_opening_rejects G a b f fr P C0 C' a' b' : valid G ->
  commit G a b = Some C0 ->
  let C := C0 + b2z f in
  let m1 := P [Send C] in
  let t3 := [Send C; Recv m1; Send (a + b2z f); Send (b + b2z (f && fr))] in
  let m2 := P t3 in
  let m3 := P (t3 ++ [Recv m2]) in
  parse m1 = PVal C' -> check_element G C' = true -> parse m2 = PVal a' -> parse m3 = PVal b' ->
  (gq G <= Z.abs a' \/ gq G <= Z.abs b' \/ ~ opens G C' a' b') ->
  snd (flip2 G a b f fr P) = Reject.
Proof.
  intros V EC C m1 t3 m2 m3 P1 CE P2 P3 Bad.
  unfold flip2. rewrite EC. fold C. fold m1. rewrite P1, CE. cbn [negb app].
  fold t3. fold m2. rewrite P2.
  destruct (Z.geb_spec (Z.abs a') (gq G)) as [Ra|Ra]; [reflexivity|].
  change (P [Send C; Recv m1; Send (a + b2z f); Send (b + b2z (f && fr)); Recv m2]) with m3.
  rewrite P3.
  destruct (Z.geb_spec (Z.abs b') (gq G)) as [Rb|Rb]; [reflexivity|].
  destruct (commit G a' b') as [lhs|] eqn:CM.
  2: { rewrite commit_sub in CM by (assumption || lia). discriminate. }
  rewrite (check_element_small G C' CE).
  destruct (Z.eqb_spec lhs C') as [EQ|NE]; [|reflexivity].
  exfalso. apply (commit_opens G V a' b') in EQ; try assumption. destruct Bad as [B|[B|B]]; [lia|lia|exact (B EQ)].
Qed.

Lemma parse_wire v : parse (wire v, true) = PVal v.
Proof. unfold parse, wire. cbn [fst snd]. now rewrite base62_roundtrip. Qed.

Lemma flip2_honest G a b fr a1 b1 l1 : valid G -> 0 <= a < gq G -> 0 <= b < gq G ->
  0 <= a1 < gq G -> 0 <= b1 < gq G -> honest_lines G a1 b1 = Some l1 ->
  exists C, commit G a b = Some C /\
    flip2 G a b false fr (script_peer l1) =
      ([Send C; Recv (nth 0 l1 eof); Send a; Send b; Recv (nth 1 l1 eof); Recv (nth 2 l1 eof)],
       Coin ((a + a1) mod gq G)).
Proof.
  intros V Ha Hb Ha1 Hb1 HL. pose proof (valid_q G V) as Hq.
  unfold honest_lines in HL. rewrite commit_sub in HL by (assumption || lia). injection HL as <-.
  set (C1 := (powm (gg G) (a1 mod gq G) (gp G) * powm (gh G) (b1 mod gq G) (gp G)) mod gp G).
  eexists. split; [apply commit_sub; (assumption || lia)|].
  unfold flip2. rewrite commit_sub by (assumption || lia).
  cbn [b2z andb]. rewrite !Z.add_0_r.
  unfold script_peer at 1. cbn [recvs filter length nth]. rewrite parse_wire.
  unfold C1 at 1. rewrite check_element_commit by assumption. cbn [negb app].
  unfold script_peer at 1. cbn [recvs filter length nth]. rewrite parse_wire.
  destruct (Z.geb_spec (Z.abs a1) (gq G)); [lia|].
  unfold script_peer at 1. cbn [recvs filter length nth app]. rewrite parse_wire.
  destruct (Z.geb_spec (Z.abs b1) (gq G)); [lia|].
  rewrite commit_sub by (assumption || lia). fold C1.
  assert (RC : 0 <= C1 < gp G) by (apply Z.mod_pos_bound; pose proof (valid_p G V); lia).
  rewrite (Z.mod_small C1) by lia. rewrite Z.eqb_refl.
  cbn [nth]. rewrite Z.add_0_l, Zplus_mod_idemp_l. reflexivity.
Qed.

(* two honest parties output the same coin (a0 + a1) mod q, each playing exactly the lines the
   other one reads *)
Theorem flip2_same_coin G a0 b0 a1 b1 f0 f1 : valid G ->
  0 <= a0 < gq G -> 0 <= b0 < gq G -> 0 <= a1 < gq G -> 0 <= b1 < gq G ->
  exists l0 l1 t0 t1,
    honest_lines G a0 b0 = Some l0 /\ honest_lines G a1 b1 = Some l1 /\
    flip2 G a0 b0 false f0 (script_peer l1) = (t0, Coin ((a0 + a1) mod gq G)) /\
    flip2 G a1 b1 false f1 (script_peer l0) = (t1, Coin ((a0 + a1) mod gq G)) /\
    map (fun v => (wire v, true)) (sends t0) = l0 /\ map (fun v => (wire v, true)) (sends t1) = l1.
Proof.
  intros V H0 H0' H1 H1'. pose proof (valid_q G V) as Hq.
  destruct (honest_lines G a0 b0) as [l0|] eqn:L0.
  2: { unfold honest_lines in L0. rewrite commit_sub in L0 by (assumption || lia). discriminate. }
  destruct (honest_lines G a1 b1) as [l1|] eqn:L1.
  2: { unfold honest_lines in L1. rewrite commit_sub in L1 by (assumption || lia). discriminate. }
  destruct (flip2_honest G a0 b0 f0 a1 b1 l1 V H0 H0' H1 H1' L1) as (C0 & E0 & F0).
  destruct (flip2_honest G a1 b1 f1 a0 b0 l0 V H1 H1' H0 H0' L0) as (C1 & E1 & F1).
  do 4 eexists. split; [reflexivity|]. split; [reflexivity|].
  split; [exact F0|]. split; [rewrite (Z.add_comm a0 a1); exact F1|].
  unfold honest_lines in L0, L1. rewrite E0 in L0. rewrite E1 in L1.
  injection L0 as <-. injection L1 as <-. split; reflexivity.
Qed.

(* no complaint: both values were delivered, are in range and open the commitment; the first is what enters the sum *)
Lemma flipN_no_complaint G o : valid G -> flipN_complaint G o = Some false ->
  exists a b, o_a o = Some a /\ o_hata o = Some b /\ Z.abs a < gq G /\ Z.abs b < gq G /\
              opens G (o_C o mod gp G) a b /\ fst (fst (recv_values (gq G) o)) = a.
Proof.
  intros V. unfold flipN_complaint, recv_values.
  destruct (o_a o) as [a|]; [|destruct (commit G 0 0); discriminate].
  destruct (o_hata o) as [b|]; [|destruct (commit G _ 0); discriminate].
  destruct (Z.geb_spec (Z.abs a) (gq G)), (Z.geb_spec (Z.abs b) (gq G));
    destruct (commit G _ _) as [lhs|] eqn:CM; try discriminate. cbn [orb fst].
  intros [= E]. apply negb_false_iff, Z.eqb_eq, (commit_opens G V a b) in E; try assumption. eauto 10.
Qed.

Theorem flipN_no_complaint_iff G o : valid G ->
  forall a b, o_a o = Some a -> o_hata o = Some b ->
  (flipN_complaint G o = Some false <->
   Z.abs a < gq G /\ Z.abs b < gq G /\ opens G (o_C o mod gp G) a b).
Proof.
  intros V a b Ea Eb. split.
  - intros E. apply (flipN_no_complaint G o V) in E as (a0 & b0 & Ea0 & Eb0 & H). rewrite Ea in Ea0. rewrite Eb in Eb0.
    injection Ea0 as <-. injection Eb0 as <-. tauto.
  - intros (Ra & Rb & O). unfold flipN_complaint, recv_values. rewrite Ea, Eb.
    destruct (Z.geb_spec (Z.abs a) (gq G)); [lia|]. destruct (Z.geb_spec (Z.abs b) (gq G)); [lia|].
    rewrite commit_sub by assumption. unfold opens in O. now rewrite O, Z.eqb_refl.
Qed.

Theorem flipN_share_ok G o rec v : valid G -> flipN_share G o rec = Some v ->
  v = rec \/ (exists b, o_a o = Some v /\ o_hata o = Some b /\ Z.abs v < gq G /\ Z.abs b < gq G /\
                        opens G (o_C o mod gp G) v b).
Proof.
  intros V. unfold flipN_share. destruct (flipN_complaint G o) as [[|]|] eqn:E; try discriminate; intros [= <-]; [now left|].
  right. apply (flipN_no_complaint G o V) in E as (a & b & Ea & Eb & Ra & Rb & O & ->). eauto 10.
Qed.

Lemma flipN_sum_spec q l : 0 < q -> flipN_sum q l = (fold_right Z.add 0 l) mod q.
Proof. intros _. exact (fold_addm (fun x => x) q l 0). Qed.

(* used by the non-vacuity examples *)
Lemma prime_11 : prime 11.
Proof.
  apply prime_intro; [lia|]. intros n Hn. apply Zgcd_1_rel_prime.
  assert (n = 1 \/ n = 2 \/ n = 3 \/ n = 4 \/ n = 5 \/ n = 6 \/ n = 7 \/ n = 8 \/ n = 9 \/ n = 10) as H by lia.
  repeat (destruct H as [-> | H]; [reflexivity|]). subst. reflexivity.
Qed.
