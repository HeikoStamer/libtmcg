(* C19 -- ASCII armor: the decoder model (ArmorDecode as implemented, std::string::find semantics) applied to
   what the encoder model emits.  Round trip for all non-empty data, refusal of the empty block, of a wrong
   checksum, of a missing blank line and of a nested block. *)
From Coq Require Import ZArith NArith List Bool Lia ZifyBool ZifyN.
From LT Require Import ListFacts PgpCodecModel PgpCodecLemmas.
Import ListNotations.
Local Open Scope N_scope.

(* is pat a prefix of every text that begins with A?  None: A ends before that is decided *)
Fixpoint pfx (pat A : list N) : option bool :=
  match pat, A with
  | [], _ => Some true
  | p :: pr, c :: ar => if p =? c then pfx pr ar else Some false
  | _ :: _, [] => None
  end.

Lemma pfx_sound pat A b X : pfx pat A = Some b -> prefix_at pat (A ++ X) = b.
Proof.
  revert A. induction pat as [|p pr IH]; intros A H.
  - cbn in H. inversion H. reflexivity.
  - destruct A as [|c ar]; [discriminate|]. cbn [pfx] in H. cbn [app prefix_at].
    destruct (p =? c); [|inversion H; reflexivity]. cbn [andb]. now apply IH.
Qed.

(* Some (Some k): first occurrence at offset k, inside A; Some None: no occurrence starts inside A; None: undecided *)
Fixpoint scan (pat A : list N) : option (option nat) :=
  match A with
  | [] => Some None
  | c :: ar => match pfx pat A with
               | Some true => Some (Some 0%nat)
               | Some false => option_map (option_map S) (scan pat ar)
               | None => None
               end
  end.

Lemma find_aux_step pat c r pos : prefix_at pat (c :: r) = false ->
  find_from_aux pat (c :: r) pos = find_from_aux pat r (S pos).
Proof. intro H. cbn [find_from_aux]. now rewrite H. Qed.

Lemma find_aux_hit pat s pos : prefix_at pat s = true -> find_from_aux pat s pos = Some pos.
Proof. intro H. destruct s; cbn [find_from_aux]; now rewrite H. Qed.

Lemma scan_sound pat A r X pos : scan pat A = Some r ->
  find_from_aux pat (A ++ X) pos =
  match r with Some k => Some (pos + k)%nat | None => find_from_aux pat X (pos + length A) end.
Proof.
  revert r pos. induction A as [|c ar IH]; intros r pos H.
  - inversion H. cbn. now rewrite Nat.add_0_r.
  - cbn [scan] in H. destruct (pfx pat (c :: ar)) as [[|]|] eqn:E; try discriminate.
    + inversion H. rewrite Nat.add_0_r. apply find_aux_hit. now apply pfx_sound.
    + destruct (scan pat ar) as [r'|]; [|discriminate]. inversion H.
      cbn [app]. rewrite find_aux_step by (apply (pfx_sound _ (c :: ar)), E). rewrite (IH r') by reflexivity.
      destruct r'; cbn [option_map length]; f_equal; lia.
Qed.

Lemma scan_found pat A k X pos : scan pat A = Some (Some k) -> find_from_aux pat (A ++ X) pos = Some (pos + k)%nat.
Proof. apply scan_sound. Qed.

Lemma scan_notin pat A X pos : scan pat A = Some None ->
  find_from_aux pat (A ++ X) pos = find_from_aux pat X (pos + length A).
Proof. apply scan_sound. Qed.

(* a text that ends where A ends *)
Lemma scan_end pat p A r pos : hd_error pat = Some p -> scan pat A = Some r ->
  find_from_aux pat A pos = option_map (Nat.add pos) r.
Proof.
  intros Hp H. rewrite <- (app_nil_r A), (scan_sound _ _ _ _ _ H). destruct r; [reflexivity|].
  destruct pat; [discriminate|reflexivity].
Qed.

Lemma find_self pat X pos : find_from_aux pat (pat ++ X) pos = Some pos.
Proof. apply find_aux_hit. induction pat; cbn; [reflexivity|]. now rewrite N.eqb_refl. Qed.

(* a stretch of text that does not contain the first character of the pattern *)
Lemma find_skip_free pat p M X pos : hd_error pat = Some p -> Forall (fun x => x <> p) M ->
  find_from_aux pat (M ++ X) pos = find_from_aux pat X (pos + length M).
Proof.
  destruct pat as [|q pr]; [discriminate|]. intro E. inversion E; subst q. clear E.
  revert pos. induction M as [|c M IH]; intros pos H.
  - cbn. now rewrite Nat.add_0_r.
  - inversion_clear H as [|? ? Hc HM]. cbn [app].
    rewrite find_aux_step by (cbn [prefix_at]; replace (p =? c) with false by lia; reflexivity).
    rewrite IH by assumption. cbn [length]. f_equal. lia.
Qed.

Lemma find_from_0 pat s : find_from pat s 0 = find_from_aux pat s 0.
Proof. reflexivity. Qed.

Lemma find_from_skip pat A X n : (n <= length A)%nat ->
  find_from pat (A ++ X) n = find_from_aux pat (skipn n A ++ X) n.
Proof.
  intro H. unfold find_from. rewrite app_length.
  replace (length A + length X <? n)%nat with false by lia.
  rewrite skipn_app. replace (n - length A)%nat with 0%nat by lia. reflexivity.
Qed.

Lemma armor_decode_run s t spos epos rpos cpos :
  armor_detect armor_types s = Some t ->
  find_from (strip_blanks (armor_begin t)) (strip_blanks s) 0 = Some spos ->
  find_from (strip_blanks (armor_end t)) (strip_blanks s) 0 = Some epos ->
  find_from [LF; LF] (strip_blanks s) spos = Some rpos ->
  find_from [LF; PAD] (strip_blanks s) spos = Some cpos ->
  find_from dashes (strip_blanks s) (spos + 33) = Some epos ->
  (spos + 24 < rpos)%nat -> (rpos + 2 < cpos)%nat -> (cpos + 6 < epos)%nat ->
  armor_decode s =
    let dec := radix64_decode (substr (strip_blanks s) (rpos + 2) (cpos - rpos - 2)) in
    if octets_eqb (crc24_encode dec) (substr (strip_blanks s) (cpos + 1) 5) then ArmOk t dec else ArmBadChecksum.
Proof.
  intros Hd Hs He Hr Hc Hn L1 L2 L3. unfold armor_decode. rewrite Hd. cbv zeta. rewrite Hs, He, Hr, Hc, Hn.
  rewrite Nat.eqb_refl. cbn [negb].
  replace (spos + 24 <? rpos)%nat with true by lia. replace (rpos + 2 <? cpos)%nat with true by lia.
  replace (cpos + 6 <? epos)%nat with true by lia. cbn [andb]. reflexivity.
Qed.

Definition plainb (c : N) : bool :=
  negb (c =? 45) && negb (c =? 10) && negb (c =? 13) && negb (c =? 32) && negb (c =? 9).
Definition plain (l : list N) : Prop := Forall (fun c => plainb c = true) l.
Definition dashfree (l : list N) : Prop := Forall (fun x => x <> 45) l.

Lemma plain_dashfree l : plain l -> dashfree l.
Proof. apply Forall_impl. intros c H. unfold plainb in H. lia. Qed.
Lemma plain_nolf l : plain l -> Forall (fun x => x <> LF) l.
Proof. apply Forall_impl. intros c H. unfold plainb, LF in *. lia. Qed.

Lemma strip_app a b : strip_blanks (a ++ b) = strip_blanks a ++ strip_blanks b.
Proof. apply filter_app. Qed.

Lemma strip_plain l : plain l -> strip_blanks l = l.
Proof.
  induction 1 as [|c l Hc _ IH]; [reflexivity|]. unfold strip_blanks in *. cbn [filter]. rewrite IH.
  unfold plainb, is_blank in *. now replace (negb ((c =? 32) || (c =? 9) || (c =? 13))) with true by lia.
Qed.

Lemma r64_char_plain v : v < 64 -> plainb (r64_char v) = true /\ r64_char v <> PAD.
Proof.
  intro H.
  pose proof (forall_below 64 (fun v => plainb (r64_char v) && negb (r64_char v =? PAD)) eq_refl v H) as F.
  cbv beta in F. apply andb_true_iff in F as [F1 F2]. split; [assumption|]. unfold PAD in *. lia.
Qed.

Lemma r64_chars_plain l : octets l -> plain (r64_chars l).
Proof.
  induction 1 as [|a Ha|a b Ha Hb|a b c r Ha Hb Hc Hr IH] using octets_ind3; cbn [r64_chars];
    try destruct (octet_split a 4 64 eq_refl Ha) as (x1 & x0 & ? & ? & -> & -> & _);
    try destruct (octet_split b 16 16 eq_refl Hb) as (y1 & y0 & ? & ? & -> & -> & _);
    try destruct (octet_split c 64 4 eq_refl Hc) as (z1 & z0 & ? & ? & -> & -> & _);
    repeat constructor; try apply IH; try apply r64_char_plain; lia.
Qed.

Lemma r64_chars_pad_pos l : octets l -> forall j, (j mod 4 = 0)%nat -> (j < length (r64_chars l))%nat ->
  nth j (r64_chars l) 0 <> PAD.
Proof.
  assert (H0 : forall a, a < 256 -> r64_char (a / 4) <> PAD)
    by (intros a Ha; destruct (octet_split a 4 64 eq_refl Ha) as (x1 & _ & ? & _ & -> & _); now apply r64_char_plain).
  induction 1 as [|a Ha|a b Ha Hb|a b c r Ha Hb Hc Hr IH] using octets_ind3; intros j Hj Hl; cbn [r64_chars length] in *.
  - lia.
  - destruct j as [|[|[|[|j]]]]; try discriminate; [now apply H0|lia].
  - destruct j as [|[|[|[|j]]]]; try discriminate; [now apply H0|lia].
  - destruct j as [|[|[|[|j]]]]; try discriminate; [now apply H0|].
    cbn [nth]. apply IH; [|lia].
    change (S (S (S (S j)))) with (4 + j)%nat in Hj. now rewrite Nat.add_comm, <- (Nat.mul_1_l 4), Nat.mod_add in Hj.
Qed.

(* wrap_lines with its line ends after strip_blanks: LF alone *)
Fixpoint lines (fuel mc : nat) (l : list N) : list N :=
  match fuel with
  | O => l
  | S f => if (length l <=? mc)%nat then l else firstn mc l ++ LF :: lines f mc (skipn mc l)
  end.

Lemma strip_wrap fuel mc l : plain l -> strip_blanks (wrap_lines fuel mc l) = lines fuel mc l.
Proof.
  revert l. induction fuel as [|f IH]; intros l H; cbn [wrap_lines lines]; [now apply strip_plain|].
  destruct (length l <=? mc)%nat; [now apply strip_plain|].
  unfold strip_blanks. rewrite filter_app. cbn [filter]. cbn [is_blank CR LF N.eqb Pos.eqb orb negb].
  fold (strip_blanks (firstn mc l)). fold (strip_blanks (wrap_lines f mc (skipn mc l))).
  rewrite strip_plain by now apply Forall_firstn. rewrite IH by now apply Forall_skipn. reflexivity.
Qed.

Lemma wrap_free c fuel mc l : c <> LF -> c <> CR -> Forall (fun x => x <> c) l -> Forall (fun x => x <> c) (wrap_lines fuel mc l).
Proof.
  intros Hc Hc'. revert l. induction fuel as [|f IH]; intros l H; cbn [wrap_lines]; [assumption|].
  destruct (length l <=? mc)%nat; [assumption|].
  apply Forall_app. split; [now apply Forall_firstn|]. constructor; [congruence|]. constructor; [congruence|].
  apply IH. now apply Forall_skipn.
Qed.

Lemma lines_cons fuel mc c l : mc <> 0%nat -> exists r, lines fuel mc (c :: l) = c :: r.
Proof.
  intro Hm. destruct fuel as [|f]; cbn [lines]; [now eexists|].
  destruct (_ <=? _)%nat; [now eexists|]. destruct mc; [congruence|]. now eexists.
Qed.

(* x is not the first character of any line of mc characters *)
Definition not_at_line_start (x : N) (mc : nat) (l : list N) : Prop :=
  forall j, (j < length l)%nat -> (j mod mc = 0)%nat -> nth j l 0 <> x.

Lemma not_at_line_start_skipn x mc l : mc <> 0%nat -> not_at_line_start x mc l -> not_at_line_start x mc (skipn mc l).
Proof.
  intros Hm G j Hj Hmod. rewrite skipn_length in Hj.
  replace (nth j (skipn mc l) 0) with (nth (mc + j) l 0).
  - apply G; [lia|]. replace (mc + j)%nat with (j + 1 * mc)%nat by lia. now rewrite Nat.mod_add.
  - rewrite <- (firstn_skipn mc l) at 1. rewrite app_nth2; rewrite firstn_length; [f_equal; lia|lia].
Qed.

(* no line of the text starts with x, no line is empty: "LF x" does not occur in it *)
Lemma find_lf_lines x fuel mc l X pos : mc <> 0%nat -> Forall (fun c => c <> LF) l -> not_at_line_start x mc l ->
  find_from_aux [LF; x] (lines fuel mc l ++ X) pos = find_from_aux [LF; x] X (pos + length (lines fuel mc l)).
Proof.
  intros Hm. revert l pos. induction fuel as [|f IH]; intros l pos Hl G; cbn [lines].
  - now apply (find_skip_free _ LF).
  - destruct (Nat.leb_spec (length l) mc) as [Hle|Hgt]; [now apply (find_skip_free _ LF)|].
    rewrite <- app_assoc. rewrite (find_skip_free _ LF) by (try apply Forall_firstn; easy).
    cbn [app]. rewrite find_aux_step.
    + rewrite IH by (try apply Forall_skipn; try apply not_at_line_start_skipn; assumption).
      f_equal. rewrite !app_length. cbn [length]. lia.
    + (* the line end is followed by the first character of the next line, l[mc] *)
      rewrite (skipn_nth mc l 0 Hgt). destruct (lines_cons f mc (nth mc l 0) (skipn (S mc) l) Hm) as (r0 & ->).
      cbn [prefix_at app]. rewrite N.eqb_refl.
      now replace (x =? nth mc l 0) with false by (specialize (G mc Hgt (Nat.mod_same mc Hm)); lia).
Qed.

(* the text the encoder emits, in pieces: head_g is the BEGIN line, with (head_s) or without the blank line after it;
   tail_s a line end and the END line; txt a whole block with radix-64 text R and checksum line C.
   A final w marks a text with the blanks removed (strip_blanks), as the decoder searches it: bw, ew the BEGIN and END lines *)
Definition head_g (sep : bool) (ty : armor_type) : list N := armor_begin ty ++ crlf ++ (if sep then crlf else []).
Definition head_s (ty : armor_type) : list N := head_g true ty.
Definition tail_s (ty : armor_type) : list N := crlf ++ armor_end ty ++ crlf.
Definition txt (ty : armor_type) (R C : list N) : list N := head_s ty ++ (R ++ crlf ++ C) ++ tail_s ty.
Definition bw (ty : armor_type) : list N := strip_blanks (armor_begin ty).
Definition ew (ty : armor_type) : list N := strip_blanks (armor_end ty).

Lemma armor_encode_txt ty data :
  armor_encode (Some ty) None [] data = txt ty (radix64_encode true data) (crc24_encode data).
Proof. unfold armor_encode, txt, head_s, head_g, tail_s. cbn [app]. now rewrite <- !app_assoc. Qed.

Lemma strip_head sep ty : strip_blanks (head_g sep ty) = bw ty ++ LF :: (if sep then [LF] else []).
Proof. unfold head_g. rewrite !strip_app. now destruct sep. Qed.
Lemma strip_tail ty : strip_blanks (tail_s ty) = LF :: ew ty ++ [LF].
Proof. unfold tail_s. now rewrite !strip_app. Qed.

Lemma armor_type_eq_dec (a b : armor_type) : {a = b} + {a <> b}.
Proof. decide equality. Qed.

(* per type facts, decided by evaluation: on the text as emitted ... *)
Lemma fact_begin_other sep t' ty : t' <> ty -> scan (armor_begin t') (head_g sep ty) = Some None.
Proof. destruct sep, t', ty; intro H; try (now destruct H); vm_compute; reflexivity. Qed.
Lemma fact_begin_tail t' ty : scan (armor_begin t') (tail_s ty) = Some None.
Proof. destruct t', ty; vm_compute; reflexivity. Qed.
Lemma fact_end_raw_head sep ty : scan (armor_end ty) (head_g sep ty) = Some None.
Proof. destruct sep, ty; vm_compute; reflexivity. Qed.
Lemma fact_end_raw_tail ty : scan (armor_end ty) (tail_s ty) = Some (Some 2%nat).
Proof. destruct ty; vm_compute; reflexivity. Qed.

(* ... and with the blanks removed *)
Lemma fact_dash_first ty : hd_error (ew ty) = Some 45.
Proof. destruct ty; vm_compute; reflexivity. Qed.
(* the decoder wants the blank line more than 24 characters after the start of the BEGIN line, and looks for
   further dashes from 33 characters after it *)
Lemma fact_begin_len ty : (25 <= length (bw ty) <= 33)%nat.
Proof. destruct ty; vm_compute; lia. Qed.
Lemma fact_end_head ty : scan (ew ty) (bw ty ++ [LF; LF]) = Some None.
Proof. destruct ty; vm_compute; reflexivity. Qed.
Lemma fact_end_tail ty : scan (ew ty) (LF :: ew ty ++ [LF]) = Some (Some 1%nat).
Proof. destruct ty; vm_compute; reflexivity. Qed.
Lemma fact_sep ty : scan [LF; LF] (bw ty ++ [LF; LF]) = Some (Some (length (bw ty))).
Proof. destruct ty; vm_compute; reflexivity. Qed.
Lemma fact_chk ty : scan [LF; PAD] (bw ty) = Some None.
Proof. destruct ty; vm_compute; reflexivity. Qed.
Lemma fact_dash_tail ty : scan dashes (LF :: ew ty ++ [LF]) = Some (Some 1%nat).
Proof. destruct ty; vm_compute; reflexivity. Qed.

(* the one type whose BEGIN line occurs, its END line further on, is the type detected *)
Lemma armor_detect_only ty s ep :
  find_from (armor_begin ty) s 0 = Some 0%nat -> (forall t', t' <> ty -> find_from (armor_begin t') s 0 = None) ->
  find_from (armor_end ty) s 0 = Some ep -> (0 < ep)%nat -> armor_detect armor_types s = Some ty.
Proof.
  intros B0 B E L. assert (G : forall ts, In ty ts -> armor_detect ts s = Some ty).
  { induction ts as [|t ts IH]; intros Hin; [destruct Hin|]. cbn [armor_detect].
    destruct (armor_type_eq_dec t ty) as [->|Hne].
    - rewrite B0, E. now replace (0 <? ep)%nat with true by lia.
    - rewrite (B t Hne). destruct Hin as [->|Hin]; [congruence|now apply IH]. }
  apply G. destruct ty; cbn; auto 6.
Qed.

Lemma detect_gen sep ty M : dashfree M -> armor_detect armor_types (head_g sep ty ++ M ++ tail_s ty) = Some ty.
Proof.
  intro HM. eapply armor_detect_only.
  - unfold head_g. rewrite find_from_0, <- app_assoc. apply find_self.
  - intros t' Hne. rewrite find_from_0, scan_notin by now apply fact_begin_other.
    rewrite (find_skip_free _ 45) by easy.
    now rewrite (scan_end _ 45 _ None) by (reflexivity || apply fact_begin_tail).
  - rewrite find_from_0, scan_notin by apply fact_end_raw_head. rewrite (find_skip_free _ 45) by easy.
    now rewrite (scan_end _ 45 _ (Some 2%nat)) by (reflexivity || apply fact_end_raw_tail).
  - lia.
Qed.

(* a complete block between header and data: the outer type is still the one detected *)
Lemma detect_nested ty M2 M : dashfree M2 -> dashfree M ->
  armor_detect armor_types (head_s ty ++ (head_s ty ++ M2 ++ tail_s ty) ++ M ++ tail_s ty) = Some ty.
Proof.
  intros H2 HM. rewrite <- !app_assoc. eapply armor_detect_only.
  - unfold head_s at 1, head_g. rewrite find_from_0, <- app_assoc. apply find_self.
  - intros t' Hne. rewrite find_from_0, !scan_notin by now apply fact_begin_other.
    rewrite (find_skip_free _ 45) by easy.
    rewrite scan_notin by apply fact_begin_tail. rewrite (find_skip_free _ 45) by easy.
    now rewrite (scan_end _ 45 _ None) by (reflexivity || apply fact_begin_tail).
  - rewrite find_from_0, !scan_notin by apply fact_end_raw_head. rewrite (find_skip_free _ 45) by easy.
    now rewrite (scan_found _ _ 2) by apply fact_end_raw_tail.
  - lia.
Qed.

Definition Rw (data : list N) : list N := lines (length (r64_chars data)) radix64_mc (r64_chars data).

Lemma strip_radix data : octets data -> strip_blanks (radix64_encode true data) = Rw data.
Proof.
  intro H. unfold radix64_encode, Rw. rewrite radix64_mc_64. cbn [Nat.eqb].
  apply strip_wrap. now apply r64_chars_plain.
Qed.

Lemma radix_dashfree data : octets data -> dashfree (radix64_encode true data).
Proof.
  intro H. unfold radix64_encode. rewrite radix64_mc_64. cbn [Nat.eqb].
  apply wrap_free; [discriminate|discriminate|]. apply plain_dashfree. now apply r64_chars_plain.
Qed.

Lemma Rw_dashfree data : octets data -> dashfree (Rw data).
Proof. intro H. rewrite <- strip_radix by assumption. eapply incl_Forall; [apply incl_filter|now apply radix_dashfree]. Qed.

Lemma r64_chars_head data : octets data -> data <> [] -> exists v r, v < 64 /\ r64_chars data = r64_char v :: r.
Proof.
  intros H Hn. destruct data as [|a [|b [|c r]]]; [congruence|..]; apply octets_cons in H as [Ha _];
    destruct (octet_split a 4 64 eq_refl Ha) as (x1 & _ & ? & _ & E & _); cbn [r64_chars]; rewrite E; exists x1; eexists; (split; [assumption|reflexivity]).
Qed.

Lemma Rw_head data : octets data -> data <> [] -> exists v r, v < 64 /\ Rw data = r64_char v :: r.
Proof.
  intros H Hn. destruct (r64_chars_head data H Hn) as (v & r & Hv & E). unfold Rw. rewrite E.
  destruct (lines_cons (length (r64_char v :: r)) radix64_mc (r64_char v) r) as (r0 & ->); [now rewrite radix64_mc_64|].
  now exists v, r0.
Qed.

(* neither the line end before the radix-64 text nor one inside it is followed by a line end or a pad *)
Lemma Rw_find x data X pos : octets data -> data <> [] -> (x = LF \/ x = PAD) ->
  find_from_aux [LF; x] (LF :: Rw data ++ X) pos = find_from_aux [LF; x] X (S pos + length (Rw data)).
Proof.
  intros H Hne Hx. pose proof (plain_nolf _ (r64_chars_plain data H)) as F.
  rewrite find_aux_step.
  - unfold Rw. apply find_lf_lines; [rewrite radix64_mc_64; discriminate|exact F|].
    intros j Hj Hmod. destruct Hx as [->| ->].
    + rewrite Forall_forall in F. apply F. now apply nth_In.
    + apply r64_chars_pad_pos; [assumption| |assumption]. rewrite radix64_mc_64 in Hmod.
      apply Nat.mod_divides in Hmod; [|discriminate]. destruct Hmod as [k ->].
      replace (64 * k)%nat with (16 * k * 4)%nat by lia. now apply Nat.mod_mul.
  - destruct (Rw_head data H Hne) as (v & r & Hv & ->). destruct (r64_char_plain v Hv) as [Hp Hq].
    cbn [prefix_at app]. rewrite N.eqb_refl. unfold plainb, LF, PAD in *.
    now replace (x =? r64_char v) with false by (destruct Hx; subst x; lia).
Qed.

Lemma filter_keep_strip l : filter r64_keep (strip_blanks l) = filter r64_keep l.
Proof.
  induction l as [|c l IH]; [reflexivity|]. unfold strip_blanks in *. cbn [filter].
  destruct (is_blank c) eqn:E; cbn [negb filter].
  - assert (c = 32 \/ c = 9 \/ c = 13) as [-> | [-> | ->]] by (unfold is_blank in E; lia); now rewrite IH.
  - now rewrite IH.
Qed.

Lemma Rw_decode data : octets data -> radix64_decode (Rw data) = data.
Proof.
  intro H. rewrite <- (strip_radix data H). unfold radix64_decode. rewrite filter_keep_strip.
  apply (radix64_roundtrip true data H).
Qed.

Lemma crc_line_shape data : exists c1 c2 c3 c4, crc24_encode data = [PAD; c1; c2; c3; c4] /\ plain [c1; c2; c3; c4].
Proof.
  rewrite crc24_encode_chars. pose proof (r64_chars_plain _ (proj1 (crc24_octets_spec data))) as Hp.
  unfold crc24_octets, be3 in *. cbn [r64_chars] in *. now do 4 eexists.
Qed.

Lemma crc_line_plain data : plain (crc24_encode data).
Proof. destruct (crc_line_shape data) as (c1 & c2 & c3 & c4 & -> & Hp). now constructor. Qed.

(* the lines between header and tail: radix-64 text, line end, checksum line *)
Lemma body_dashfree data C : octets data -> plain C -> dashfree (radix64_encode true data ++ crlf ++ C).
Proof.
  intros. apply Forall_app. split; [now apply radix_dashfree|].
  repeat (constructor; [discriminate|]). now apply plain_dashfree.
Qed.
Lemma wbody_dashfree data C : octets data -> plain C -> dashfree (Rw data ++ LF :: C).
Proof. intros. apply Forall_app. split; [now apply Rw_dashfree|]. constructor; [discriminate|now apply plain_dashfree]. Qed.

Theorem armor_decode_block : forall ty data c1 c2 c3 c4, octets data -> data <> [] -> plain [c1; c2; c3; c4] ->
  armor_decode (txt ty (radix64_encode true data) [PAD; c1; c2; c3; c4]) =
    if octets_eqb (crc24_encode data) [PAD; c1; c2; c3; c4] then ArmOk ty data else ArmBadChecksum.
Proof.
  intros ty data c1 c2 c3 c4 Ho Hne Hc.
  set (C := [PAD; c1; c2; c3; c4]). assert (HC : plain C) by (constructor; [reflexivity|assumption]).
  set (Tw := LF :: ew ty ++ [LF]).
  assert (Hs : strip_blanks (txt ty (radix64_encode true data) C) = (bw ty ++ [LF; LF]) ++ (Rw data ++ LF :: C) ++ Tw)
    by (unfold txt, head_s; now rewrite !strip_app, strip_head, strip_radix, (strip_plain C), strip_tail).
  pose proof (wbody_dashfree data C Ho HC) as Wfree.
  pose proof (fact_dash_first ty) as He. pose proof (fact_begin_len ty) as Hlen.
  set (hb := length (bw ty)) in *. set (n := length (Rw data)).
  assert (Hn : (1 <= n)%nat) by (destruct (Rw_head data Ho Hne) as (v & r & _ & E); unfold n; rewrite E; cbn; lia).
  (* BEGIN line, END line, blank line and checksum line as they lie in bw ty, LF LF, Rw data, LF, C, LF, ew ty, LF *)
  rewrite (armor_decode_run _ ty) with (spos := 0%nat) (epos := (hb + 2 + (n + 6) + 1)%nat) (rpos := hb) (cpos := (hb + 2 + n)%nat);
    rewrite ?Hs, ?find_from_0; try lia.
  - (* what lies between the positions found: the radix-64 text and the checksum line *)
    cbv zeta. replace (hb + 2 + n - hb - 2)%nat with n by lia.
    rewrite <- (app_assoc (Rw data)), (substr_app_exact (hb + 2)) by (rewrite app_length; reflexivity).
    rewrite Rw_decode by assumption.
    replace (_ ++ _) with (((bw ty ++ [LF; LF]) ++ Rw data ++ [LF]) ++ C ++ Tw) by (now rewrite <- !app_assoc).
    now rewrite (substr_app_exact _ _ C) by (rewrite !app_length; unfold C; cbn [length]; fold hb n; lia).
  - (* the type *) apply detect_gen. now apply body_dashfree.
  - (* the BEGIN line *) rewrite <- app_assoc. apply find_self.
  - (* the END line: not in the header, no dash before the tail *)
    rewrite scan_notin by apply fact_end_head. rewrite (find_skip_free _ 45) by assumption.
    rewrite (scan_end _ 45 _ (Some 1%nat)) by (assumption || apply fact_end_tail).
    cbn [option_map]. f_equal. rewrite !app_length. unfold C. cbn [length]. fold hb n. lia.
  - (* the blank line *) now rewrite (scan_found _ _ _ _ _ (fact_sep ty)).
  - (* the checksum line: the first line end followed by a pad *)
    rewrite <- !app_assoc, scan_notin by apply fact_chk. cbn [app].
    rewrite find_aux_step, Rw_find by auto. rewrite find_aux_hit by reflexivity. f_equal. fold hb n. lia.
  - (* no further dashes before the tail line *)
    rewrite app_assoc, find_from_skip by (rewrite !app_length; unfold C; cbn [length]; fold hb n; lia).
    rewrite (find_skip_free _ 45), (scan_end _ 45 _ (Some 1%nat)); try reflexivity; try apply fact_dash_tail.
    + cbn [option_map]. f_equal. rewrite skipn_length, !app_length. unfold C. cbn [length]. fold hb n. lia.
    + rewrite <- app_assoc, skipn_app, (skipn_all2 (bw ty)) by (fold hb; lia).
      apply Forall_skipn. now repeat (constructor; [discriminate|]).
Qed.

(* every non-empty octet string survives armoring, for every block type *)
Theorem armor_roundtrip : forall ty data, octets data -> data <> [] ->
  armor_decode (armor_encode (Some ty) None [] data) = ArmOk ty data.
Proof.
  intros ty data Ho Hne. rewrite armor_encode_txt.
  destruct (crc_line_shape data) as (c1 & c2 & c3 & c4 & E & Hp). rewrite E.
  rewrite armor_decode_block, E by assumption. now rewrite (proj2 (octets_eqb_eq _ _) eq_refl).
Qed.

(* ... but the block emitted for the empty string is refused: the decoder wants at least one data character *)
Theorem armor_roundtrip_empty_refuted : forall ty, armor_decode (armor_encode (Some ty) None [] []) = ArmBadLayout.
Proof. destruct ty; vm_compute; reflexivity. Qed.

(* any other well-formed checksum line is refused *)
Theorem armor_rejects_wrong_checksum : forall ty data c1 c2 c3 c4, octets data -> data <> [] ->
  plain [c1; c2; c3; c4] -> [PAD; c1; c2; c3; c4] <> crc24_encode data ->
  armor_decode (txt ty (radix64_encode true data) [PAD; c1; c2; c3; c4]) = ArmBadChecksum.
Proof.
  intros ty data c1 c2 c3 c4 Ho Hne Hp Hd. rewrite armor_decode_block by assumption.
  destruct (octets_eqb _ _) eqn:E; [|reflexivity]. apply octets_eqb_eq in E. congruence.
Qed.

(* changed data under the checksum line of the old data is refused *)
Corollary armor_rejects_changed_data : forall ty d1 d2, octets d1 -> octets d2 -> d2 <> [] ->
  crc24_encode d1 <> crc24_encode d2 ->
  armor_decode (txt ty (radix64_encode true d2) (crc24_encode d1)) = ArmBadChecksum.
Proof.
  intros ty d1 d2 H1 H2 Hne Hd. destruct (crc_line_shape d1) as (c1 & c2 & c3 & c4 & E & Hp). rewrite E in *.
  now apply armor_rejects_wrong_checksum.
Qed.

(* no blank line between header line and data *)
Lemma fact_nosep ty : scan [LF; LF] (bw ty) = Some None.
Proof. destruct ty; vm_compute; reflexivity. Qed.
Lemma fact_nosep_tail ty : scan [LF; LF] (LF :: ew ty) = Some None.
Proof. destruct ty; vm_compute; reflexivity. Qed.

Theorem armor_rejects_missing_separator : forall ty data, octets data -> data <> [] ->
  armor_decode (head_g false ty ++ (radix64_encode true data ++ crlf ++ crc24_encode data) ++ tail_s ty) = ArmNoSeparator.
Proof.
  intros ty data Ho Hne. destruct (crc_line_shape data) as (c1 & c2 & c3 & c4 & -> & Hp).
  set (C := [PAD; c1; c2; c3; c4]). assert (HC : plain C) by (constructor; [reflexivity|assumption]).
  unfold armor_decode. rewrite detect_gen by now apply body_dashfree. cbv zeta. fold (bw ty).
  rewrite !strip_app, strip_head, strip_radix, (strip_plain C), strip_tail by assumption.
  change (strip_blanks crlf) with [LF]. rewrite find_from_0, <- !app_assoc, find_self, find_from_0. cbn [app].
  rewrite scan_notin by apply fact_nosep. rewrite Rw_find by auto.
  rewrite find_aux_step, (find_skip_free _ LF) by (reflexivity || now apply plain_nolf).
  now rewrite app_comm_cons, scan_notin by apply fact_nosep_tail.
Qed.

(* the dashes that end the inner BEGIN line are found first, well before the outer END line *)
Lemma fact_nested ty : exists p,
  scan dashes (skipn 33 ((bw ty ++ [LF; LF]) ++ (bw ty ++ [LF; LF]))) = Some (Some p) /\
  (33 + p < 2 * (length (bw ty) + 2))%nat.
Proof. destruct ty; eexists; (split; [vm_compute; reflexivity|vm_compute; lia]). Qed.

Theorem armor_rejects_nested : forall ty d1 d2, octets d1 -> octets d2 ->
  armor_decode (head_s ty ++ armor_encode (Some ty) None [] d2
                ++ (radix64_encode true d1 ++ crlf ++ crc24_encode d1) ++ tail_s ty) = ArmNested.
Proof.
  intros ty d1 d2 H1 H2. rewrite armor_encode_txt. unfold txt.
  set (C1 := crc24_encode d1). set (C2 := crc24_encode d2).
  pose proof (crc_line_plain d1) as HC1. pose proof (crc_line_plain d2) as HC2.
  pose proof (wbody_dashfree d2 C2 H2 HC2) as G2.
  pose proof (fact_dash_first ty) as He. pose proof (fact_begin_len ty) as Hlen. destruct (fact_nested ty) as (p & Hp & Hlt).
  unfold armor_decode. rewrite detect_nested by now apply body_dashfree. cbv zeta. fold (bw ty) (ew ty). unfold head_s.
  rewrite !strip_app, !strip_head, !strip_radix, (strip_plain C1), (strip_plain C2), !strip_tail by assumption.
  set (Hw := bw ty ++ [LF; LF]). set (Tw := LF :: ew ty ++ [LF]). set (W2 := Rw d2 ++ LF :: C2).
  change (strip_blanks crlf) with [LF]. cbn [app]. fold W2.
  set (w := Hw ++ (Hw ++ W2 ++ Tw) ++ _).
  assert (Es : find_from (bw ty) w 0 = Some 0%nat) by (unfold w, Hw; rewrite <- app_assoc; apply find_self).
  assert (Ee : find_from (ew ty) w 0 = Some (length Hw + length Hw + length W2 + 1)%nat).
  { unfold w. rewrite find_from_0, <- !app_assoc. unfold Hw at 1 2. rewrite !scan_notin by apply fact_end_head.
    rewrite (find_skip_free _ 45) by assumption. unfold Tw at 1.
    rewrite (scan_found _ _ 1) by apply fact_end_tail. f_equal; lia. }
  assert (Er : find_from [LF; LF] w 0 = Some (length (bw ty))).
  { unfold w, Hw at 1. now rewrite find_from_0, (scan_found _ _ _ _ _ (fact_sep ty)). }
  assert (En : find_from dashes w (0 + 33) = Some (33 + p)%nat).
  { unfold w. rewrite <- !app_assoc, (app_assoc Hw Hw).
    rewrite find_from_skip by (unfold Hw; rewrite !app_length; cbn [length]; lia).
    unfold Hw. now rewrite (scan_found _ _ _ _ _ Hp). }
  rewrite Es, Ee, Er, En.
  replace (33 + p =? _)%nat with false by (unfold Hw; rewrite !app_length; cbn [length]; lia). reflexivity.
Qed.
