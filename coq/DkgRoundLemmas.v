(* DkgRoundLemmas: the sharing phase of GJKR-DKG as modelled in DkgRoundModel: QUAL is a function of the broadcast values only
   (qual_agreement), the > t rule counts the party's own complaint, and the pairs an honest party ends with match the
   commitments of the QUAL members (final_pair_consistent, shares_consistent). *)
From Coq Require Import ZArith Znumtheory Lia List Bool ZifyBool FinFun.
From LT Require Import ListFacts Zbase CoinFlipArith VssModel VssLemmas VssLagrange DkgModel DkgLemmas DkgRoundModel.
Import ListNotations.
Local Open Scope Z_scope.

Lemma in_parties n j : In j (parties n) <-> 0 <= j < n.
Proof.
  unfold parties. rewrite in_map_iff. split.
  - intros (k & <- & Hk). apply in_seq in Hk. lia.
  - intros H. exists (Z.to_nat j). split; [lia|]. apply in_seq. lia.
Qed.
Lemma NoDup_parties n : NoDup (parties n).
Proof.
  unfold parties. apply Injective_map_NoDup; [|apply seq_NoDup].
  intros a b H. lia.
Qed.
Lemma length_parties n : length (parties n) = Z.to_nat n.
Proof. unfold parties. now rewrite map_length, seq_length. Qed.

Lemma zsum_ext f1 f2 l : (forall j, In j l -> f1 j = f2 j) -> zsum f1 l = zsum f2 l.
Proof.
  induction l as [|a l IH]; intros H; cbn [zsum fold_right]; [reflexivity|].
  fold (zsum f1 l). fold (zsum f2 l). rewrite IH by (intros; apply H; now right). rewrite (H a) by now left. reflexivity.
Qed.

Lemma memz_In w l : memz w l = true <-> In w l.
Proof.
  unfold memz. rewrite existsb_exists. split.
  - intros (x & Hx & E). apply Z.eqb_eq in E. now subst.
  - intros H. exists w. split; [assumption|apply Z.eqb_refl].
Qed.

Lemma who_of_small v : 0 <= v < 2 ^ 64 -> who_of v = v.
Proof. intros H. unfold who_of. rewrite Z.abs_eq by lia. apply Z.mod_small. lia. Qed.

(* an honest party's own complaint stream is read back as exactly its complaint list *)
Lemma scan_own n : 0 <= n < 2 ^ 64 -> forall l fuel acc bad,
  (forall v, In v l -> 0 <= v < n) -> NoDup l -> (forall v, In v l -> ~ In v acc) -> (length l < fuel)%nat ->
  scan_dkg fuel n (l ++ [n]) acc bad = (rev l ++ acc, bad).
Proof.
  intros Hn. induction l as [|v l IH]; intros fuel acc bad Hr Hnd Hdis Hf.
  - destruct fuel; [cbn in Hf; lia|]. cbn [app scan_dkg rev]. rewrite who_of_small by lia.
    destruct (Z.ltb_spec n n); [lia|reflexivity].
  - destruct fuel; [cbn in Hf; lia|]. cbn [app scan_dkg].
    assert (Hv : 0 <= v < n) by (apply Hr; now left). rewrite who_of_small by lia.
    destruct (Z.ltb_spec v n); [|lia].
    destruct (memz v acc) eqn:M.
    + apply memz_In in M. exfalso. apply (Hdis v); [now left|assumption].
    + inversion Hnd as [|? ? Hnotin Hnd']; subst.
      rewrite IH.
      * cbn [rev]. rewrite <- app_assoc. reflexivity.
      * intros; apply Hr; now right.
      * assumption.
      * intros x Hx [E|Hin]; [subst; contradiction|]. apply (Hdis x); [now right|assumption].
      * cbn [length] in Hf. lia.
Qed.

Section Agreement.
  Variables (p q g h n t i : Z) (B : list bcast) (P : list (option (Z * Z))).
  Hypothesis Hn : 0 <= n < 2 ^ 64.
  Hypothesis Hi : 0 <= i < n.
  (* P_i broadcast what the code broadcasts: its complaint list followed by the end marker *)
  Hypothesis Hown : b_compl (getB B i) = dkg_own_stream p q g h n i B P.

  Let mine := dkg_mine p q g h n i B P.

  Lemma mine_props : (forall v, In v mine -> 0 <= v < n) /\ NoDup mine /\ (length mine <= Z.to_nat n)%nat.
  Proof.
    unfold mine, dkg_mine. split; [|split].
    - intros v Hv. apply filter_In in Hv. destruct Hv as [Hv _]. now apply in_parties.
    - apply NoDup_filter. apply NoDup_parties.
    - rewrite <- length_parties. apply filter_length_le.
  Qed.

  Lemma own_scan : scan_dkg (S (Z.to_nat n)) n (b_compl (getB B i)) [] false = (rev mine, false).
  Proof.
    rewrite Hown. unfold dkg_own_stream. fold mine. destruct mine_props as (H1 & H2 & H3).
    rewrite <- (app_nil_r (rev mine)). apply scan_own; try assumption; [intros v _ []|lia].
  Qed.

  Lemma own_accused w : memz w (accused n (b_compl (getB B i))) = memz w mine.
  Proof.
    unfold accused. rewrite own_scan. cbn [fst]. apply eq_true_iff_eq. rewrite !memz_In. symmetry. apply in_rev.
  Qed.
  Lemma own_not_bad : bad_stream n (b_compl (getB B i)) = false.
  Proof. unfold bad_stream. now rewrite own_scan. Qed.

  (* the counters of P_i are the global counters *)
  Lemma cnt_view_glob w : cnt_view p q g h n i B P w = cnt_glob n B w.
  Proof.
    unfold cnt_view, cnt_view_m, cnt_glob. apply zsum_ext. intros j _.
    destruct (Z.eqb_spec j i) as [->|]; [|reflexivity]. fold mine. now rewrite own_accused.
  Qed.
End Agreement.

(* the flag of the answer check does not depend on who evaluates it *)
Lemma ans_flag_indep p q g h n Cj : forall fuel res bad i1 i2 sg1 ta1 sg2 ta2,
  fst (fst (ans_go fuel p q g h n i1 Cj res bad sg1 ta1)) = fst (fst (ans_go fuel p q g h n i2 Cj res bad sg2 ta2)).
Proof.
  induction fuel as [|f IH]; intros res bad i1 i2 sg1 ta1 sg2 ta2; cbn [ans_go]; [reflexivity|].
  destruct res as [|w r1]; [reflexivity|]. destruct (n <=? who_of w); [reflexivity|].
  destruct r1 as [|fv [|bv r3]]; try reflexivity.
  destruct (share_okb _ _ _ _ _ _ _); [|apply IH].
  destruct (who_of w =? i1), (who_of w =? i2); apply IH.
Qed.

(* QUAL as computed by an honest party is the function qual_glob of the broadcast values *)
Theorem qual_view_is_global p q g h n t i B P :
  0 <= n < 2 ^ 64 -> 0 <= i < n ->
  b_compl (getB B i) = dkg_own_stream p q g h n i B P ->
  ans_glob p q g h n B i = false ->            (* its own published answers pass the public check (honest dealer) *)
  qual_view p q g h n t i B P = qual_glob p q g h n t B.
Proof.
  intros Hn Hi Hown Hans. unfold qual_view, qual_view_m, qual_glob. apply filter_ext_in. intros j Hj. f_equal.
  unfold disq_view_m, disq_glob. fold (cnt_view p q g h n i B P j). rewrite cnt_view_glob by assumption.
  destruct (Z.eqb_spec j i) as [->|Hne].
  - rewrite (own_not_bad p q g h n i B P) by assumption. rewrite Hans. now rewrite orb_false_r.
  - f_equal. unfold ans_of, ans_glob, viewC. destruct (Z.eqb_spec j i); [contradiction|]. apply ans_flag_indep.
Qed.

(* C15 agreement on the qualified set: two honest parties that received the same broadcasts (agreement of the broadcast layer,
   C14) compute the same QUAL, whatever they received point-to-point *)
Theorem qual_agreement p q g h n t i1 i2 B P1 P2 :
  0 <= n < 2 ^ 64 -> 0 <= i1 < n -> 0 <= i2 < n ->
  b_compl (getB B i1) = dkg_own_stream p q g h n i1 B P1 -> b_compl (getB B i2) = dkg_own_stream p q g h n i2 B P2 ->
  ans_glob p q g h n B i1 = false -> ans_glob p q g h n B i2 = false ->
  qual_view p q g h n t i1 B P1 = qual_view p q g h n t i2 B P2.
Proof. intros. rewrite !qual_view_is_global by assumption. reflexivity. Qed.

Lemma disq_not_in_qual p q g h n t i B P j : disq_view p q g h n t i B P j = true -> ~ In j (qual_view p q g h n t i B P).
Proof. intros D H. unfold disq_view in D. unfold qual_view, qual_view_m in H. apply filter_In in H. destruct H as [_ H]. rewrite D in H. discriminate. Qed.

(* more than t complaints (as counted by P_i) disqualify, for every party including P_i itself *)
Theorem too_many_complaints_disqualify p q g h n t i B P j :
  t < cnt_view p q g h n i B P j -> ~ In j (qual_view p q g h n t i B P).
Proof.
  intros H. apply disq_not_in_qual. unfold disq_view, disq_view_m. fold (cnt_view p q g h n i B P j). destruct (j =? i); [lia|].
  destruct (Z.ltb_spec t (cnt_view p q g h n i B P j)); [|lia]. now rewrite orb_true_r.
Qed.

Lemma zsum_nonneg f l : (forall j, 0 <= f j) -> 0 <= zsum f l.
Proof. intros H. induction l as [|a l IH]; cbn [zsum fold_right]; [lia|]. fold (zsum f l). specialize (H a). lia. Qed.
Lemma zsum_split f l a : NoDup l -> In a l -> zsum f l = f a + zsum (fun j => if j =? a then 0 else f j) l.
Proof.
  induction l as [|b l IH]; intros Hnd Hin; [contradiction|]. inversion Hnd as [|? ? Hnotin Hnd']; subst.
  cbn [zsum fold_right]. fold (zsum f l). fold (zsum (fun j => if j =? a then 0 else f j) l).
  destruct Hin as [->|Hin].
  - rewrite Z.eqb_refl. rewrite (zsum_ext (fun j => if j =? a then 0 else f j) f l); [lia|].
    intros j Hj. destruct (Z.eqb_spec j a); [subst; contradiction|reflexivity].
  - destruct (Z.eqb_spec b a) as [->|]; [contradiction|]. rewrite (IH Hnd' Hin). lia.
Qed.

(* the party's own complaint counts: cnt = [P_i complains about w] + number of OTHER parties that named w *)
Theorem own_complaint_counts p q g h n i B P w : 0 <= i < n ->
  cnt_view p q g h n i B P w =
  b2z (memz w (dkg_mine p q g h n i B P)) + zsum (fun j => if j =? i then 0 else b2z (memz w (acc_of n B j))) (parties n).
Proof.
  intros Hi. unfold cnt_view, cnt_view_m. rewrite (zsum_split _ (parties n) i (NoDup_parties n)) by now apply in_parties.
  rewrite Z.eqb_refl. f_equal. apply zsum_ext. intros j _. destruct (j =? i); reflexivity.
Qed.

(* > t justified complaints: P_i's own complaint together with t complaints of other parties disqualifies the dealer *)
Theorem justified_complaints_disqualify p q g h n t i B P w : 0 <= i < n -> 0 <= w < n ->
  dkg_complains p q g h i B P w = true ->
  t <= zsum (fun j => if j =? i then 0 else b2z (memz w (acc_of n B j))) (parties n) ->
  ~ In w (qual_view p q g h n t i B P).
Proof.
  intros Hi Hw Hc Ht. apply too_many_complaints_disqualify. rewrite own_complaint_counts by assumption.
  assert (M : memz w (dkg_mine p q g h n i B P) = true).
  { apply memz_In. unfold dkg_mine. apply filter_In. split; [now apply in_parties|assumption]. }
  rewrite M. cbn [b2z]. lia.
Qed.

(* does the answer stream contain a triple for P_i (read before the end marker)? *)
Fixpoint ans_mentions (fuel : nat) (n i : Z) (res : list Z) : bool :=
  match fuel with
  | O => false
  | S f => match res with
           | w :: _ :: _ :: r3 => if n <=? who_of w then false else (who_of w =? i) || ans_mentions f n i r3
           | _ => false
           end
  end.

Lemma ans_bad_sticky p q g h n i Cj : forall fuel res sg ta, fst (fst (ans_go fuel p q g h n i Cj res true sg ta)) = true.
Proof.
  induction fuel as [|f IH]; intros res sg ta; cbn [ans_go]; [reflexivity|].
  destruct res as [|w r1]; [reflexivity|]. destruct (n <=? who_of w); [reflexivity|].
  destruct r1 as [|fv [|bv r3]]; try reflexivity. cbn [orb].
  destruct (share_okb _ _ _ _ _ _ _); [|apply IH]. destruct (who_of w =? i); apply IH.
Qed.

Lemma ans_own_pair p q g h n i Cj : forall fuel res bad sg ta,
  fst (fst (ans_go fuel p q g h n i Cj res bad sg ta)) = false ->
  ans_mentions fuel n i res = true \/ share_okb p g h Cj (i + 1) sg ta = true ->
  share_okb p g h Cj (i + 1) (snd (fst (ans_go fuel p q g h n i Cj res bad sg ta))) (snd (ans_go fuel p q g h n i Cj res bad sg ta)) = true.
Proof.
  induction fuel as [|f IH]; intros res bad sg ta E H; cbn [ans_go ans_mentions] in *.
  - destruct H as [H|H]; [discriminate|exact H].
  - destruct res as [|w r1]; [discriminate|].
    destruct (n <=? who_of w) eqn:Wn.
    { cbn [fst snd] in *. destruct r1 as [|fv [|bv r3]]; destruct H as [H|H]; try discriminate; exact H. }
    destruct r1 as [|fv [|bv r3]]; try discriminate.
    destruct (share_okb p g h Cj (who_of w + 1) _ _) eqn:S.
    + destruct (Z.eqb_spec (who_of w) i) as [Ei|Ei].
      * apply IH; [exact E|]. right. rewrite <- Ei. exact S.
      * apply IH; [exact E|]. destruct H as [H|H]; [left; exact H|right; exact H].
    + rewrite ans_bad_sticky in E. discriminate.
Qed.

(* the pair of a qualified dealer that P_i holds satisfies equation (4) of GJKR new-DKG, g^s h^s' = prod_k C_jk^((i+1)^k), provided P_i had no reason to complain or the dealer's
   answer stream contains a pair for P_i.  (The code does not check that every complaint was answered: see the refuted statement.) *)
Theorem final_pair_consistent p q g h n t i B P j : 0 <= j < n ->
  In j (qual_view p q g h n t i B P) ->
  dkg_complains p q g h i B P j = false \/ (j <> i /\ ans_mentions (S (Z.to_nat n)) n i (b_ans (getB B j)) = true) ->
  share_okb p g h (viewC p q i j B) (i + 1) (fst (final_pair p q g h n t i B P j)) (snd (final_pair p q g h n t i B P j)) = true.
Proof.
  intros Hj Hq H. unfold qual_view, qual_view_m in Hq. apply filter_In in Hq. destruct Hq as [_ Hq]. apply negb_true_iff in Hq.
  assert (Hok : dkg_complains p q g h i B P j = false ->
                share_okb p g h (viewC p q i j B) (i + 1) (fst (rx_pair q (getP P j))) (snd (rx_pair q (getP P j))) = true).
  { unfold dkg_complains. intros C. apply orb_false_elim in C. destruct C as [C _]. now apply negb_false_iff in C. }
  unfold final_pair, final_pair_m, disq_view_m in *. fold (cnt_view p q g h n i B P j) in *. destruct (Z.eqb_spec j i) as [->|Hne].
  - cbn [orb]. destruct H as [H|[H _]]; [now apply Hok|congruence].
  - cbn [orb]. apply orb_false_elim in Hq. destruct Hq as [Hq Hans]. apply orb_false_elim in Hq. destruct Hq as [_ Hc]. rewrite Hc.
    unfold ans_of in *. apply ans_own_pair; [exact Hans|].
    destruct H as [H|[_ H]]; [right; now apply Hok|left; exact H].
Qed.

(* REFUTED as a statement without the premise on the answers: a dealer that gives P_i a wrong pair and then broadcasts only the end
   marker stays in QUAL (one complaint, t = 1) and P_i keeps the inconsistent pair.  Witness: p = 23, q = 11, g = 2, h = 3, n = 3, t = 1;
   P_1's view, dealer P_0 (f = 5 + 4z, f' = 2 + 7z) sends (3, 5) instead of (2, 5); P_1 and P_2 are honest dealers. *)
Definition wit_B : list bcast :=
  [ mkB (commits 23 2 3 [5; 4] [2; 7]) [3] [3];
    mkB (commits 23 2 3 [1; 2] [3; 4]) [0; 3] [3];
    mkB (commits 23 2 3 [6; 1] [0; 9]) [3] [3] ].
Definition wit_P : list (option (Z * Z)) :=
  [ Some (3, 5); Some (poly_eval 11 [1; 2] 2, poly_eval 11 [3; 4] 2); Some (poly_eval 11 [6; 1] 2, poly_eval 11 [0; 9] 2) ].
Theorem shares_consistent_unconditional_refuted :
  In 0 (qual_view 23 11 2 3 3 1 1 wit_B wit_P) /\ dkg_defined 23 11 2 3 3 1 1 wit_B wit_P = true /\
  b_compl (getB wit_B 1) = dkg_own_stream 23 11 2 3 3 1 wit_B wit_P /\
  share_okb 23 2 3 (viewC 23 11 1 0 wit_B) 2 (fst (final_pair 23 11 2 3 3 1 1 wit_B wit_P 0)) (snd (final_pair 23 11 2 3 3 1 1 wit_B wit_P 0)) = false.
Proof. split; [|split; [|split]]; vm_compute; auto. Qed.

(* the aggregated form: g^x_i h^x'_i = prod_{j in QUAL} prod_k C_jk^((i+1)^k) *)
Lemma nthz_map_parties (f : Z -> Z) n j : 0 <= j < n -> nthz (map f (parties n)) j = f j.
Proof.
  intros Hj. unfold nthz, parties. rewrite map_map.
  rewrite (nth_indep _ 0 (f (Z.of_nat 0))) by (rewrite map_length, seq_length; lia).
  rewrite (map_nth (fun k => f (Z.of_nat k)) (seq 0 (Z.to_nat n)) 0%nat). rewrite seq_nth by lia. f_equal. lia.
Qed.

Lemma sum_qual_map q n ql f : (forall j, In j ql -> 0 <= j < n) -> sum_qual q ql (map f (parties n)) = zsum f ql mod q.
Proof. intros H. rewrite sum_qual_spec. f_equal. apply zsum_ext. intros j Hj. now apply nthz_map_parties, H. Qed.

Section Aggregate.
  Variables p q g h : Z.
  Hypothesis Hp : 1 < p.
  Hypothesis Hq : prime q.
  Hypothesis Hg : powm g q p = 1.
  Hypothesis Hh : powm h q p = 1.
  Let q_pos : 1 < q. Proof. destruct Hq. lia. Qed.

  (* pairs that satisfy the check one by one satisfy it summed up, against the product of the right-hand sides *)
  Lemma agg_fold (x : Z) (Cs : Z -> list Z) (s s' : Z -> Z) (qual : list Z) :
    (forall j, In j qual -> 0 <= s j /\ 0 <= s' j /\ share_ok p g h (Cs j) x (s j) (s' j) = Some true) ->
    0 <= zsum s qual /\ 0 <= zsum s' qual /\
    (powm g (zsum s qual) p * powm h (zsum s' qual) p) mod p =
    fold_right (fun j a => (rhs_prod p (Cs j) x * a) mod p) (1 mod p) qual.
  Proof.
    induction qual as [|j r IH]; intros H; cbn [zsum fold_right].
    { repeat split; try lia. symmetry. exact (Zmult_mod 1 1 p). }
    fold (zsum s r) (zsum s' r).
    destruct (IH (fun j' Hj => H j' (or_intror Hj))) as (N1 & N2 & E). destruct (H j (or_introl eq_refl)) as (S1 & S2 & Ok).
    rewrite share_ok_nonneg in Ok by assumption. injection Ok as Ok. apply Z.eqb_eq in Ok.
    repeat split; try lia. rewrite !powm_add, <- Zmult_mod, <- E, <- Ok, <- Zmult_mod by lia. f_equal. ring.
  Qed.

  (* every honest party's key share matches the public commitments of the qualified dealers *)
  Theorem shares_consistent n t i B P :
    0 <= i ->
    (forall j, In j (qual_view p q g h n t i B P) ->
       0 <= fst (final_pair p q g h n t i B P j) /\ 0 <= snd (final_pair p q g h n t i B P j) /\
       share_ok p g h (viewC p q i j B) (i + 1) (fst (final_pair p q g h n t i B P j)) (snd (final_pair p q g h n t i B P j)) = Some true) ->
    (powm g (fst (view_x p q g h n t i B P)) p * powm h (snd (view_x p q g h n t i B P)) p) mod p =
    fold_right (fun j a => (rhs_prod p (viewC p q i j B) (i + 1) * a) mod p) (1 mod p) (qual_view p q g h n t i B P).
  Proof.
    intros _ H. set (Q := qual_view p q g h n t i B P) in *.
    assert (HQ : forall j, In j Q -> 0 <= j < n).
    { intros j Hj. apply filter_In in Hj. now apply in_parties. }
    destruct (agg_fold _ _ _ _ Q H) as (N1 & N2 & <-).
    change (view_x p q g h n t i B P) with
      (sum_qual q Q (map (fun j => fst (final_pair p q g h n t i B P j)) (parties n)),
       sum_qual q Q (map (fun j => snd (final_pair p q g h n t i B P j)) (parties n))).
    cbn [fst snd]. now rewrite !sum_qual_map, !(powm_mod_order p q) by (assumption || lia).
  Qed.
End Aggregate.
