(* AioProgress: proofs about AioModel -- a receiver that keeps being called settles: after more than
   3*|pipe| + |buf| + 1 calls nothing remains to be delivered, unless the receive buffer is full of bytes that hold no
   complete record while more are waiting (the "read buffer exceeded" state of the code). *)
From Coq Require Import ZArith NArith List Bool Lia.
From LT Require Import gen_Consts CodecModel CodecLemmas AioModel AioLemmas.
Import ListNotations.

Section Progress.
Variable P : prims.
Variable c : cfg.
Variable nonce : bytes.

Notation deliveries := (stream_deliveries P c nonce).
Notation wf := (recv_wf P c).

(* the factor 3: a read of n >= 1 bytes lowers 3|pipe| by 3n and raises |buf| by n and the flag by at most 1 (read_progress:
   a drop of 2); a parse shortens the buffer or clears the flag *)
Definition mu (st : rstate) (pipe : bytes) : nat :=
  (3 * length pipe + length (r_buf st) + (if r_flag st then 1 else 0))%nat.

(* buf_flag cleared means: nothing parseable buffered (or still waiting for the IV) *)
Definition flag_ok (st : rstate) : Prop :=
  r_flag st = false -> first_record (eff_maclen P c) (r_buf st) = None \/ (encr c = true /\ r_iv st = false).

(* "read buffer exceeded": bytes are waiting, the buffer has no room, and nothing buffered can be parsed *)
Definition stuck (st : rstate) (pipe : bytes) : Prop :=
  pipe <> [] /\ Z.to_nat (buf_in_size - blen (r_buf st)) = O /\ r_flag st = false /\ flag_ok st.

Lemma read_progress st pipe st1 p1 : r_flag st = false -> flag_ok st -> recv_read P c st pipe = (st1, p1) ->
  (st1 = st /\ p1 = pipe /\ (pipe = [] \/ stuck st pipe)) \/
  (flag_ok st1 /\ (3 * length p1 + length (r_buf st1) + 2 <= 3 * length pipe + length (r_buf st))%nat).
Proof.
  intros F FO H. unfold recv_read in H.
  set (room := Z.to_nat (buf_in_size - blen (r_buf st))) in *.
  pose proof (firstn_skipn room pipe) as FS.
  pose proof (f_equal (@length _) (firstn_skipn room pipe)) as LP. rewrite app_length in LP.
  destruct (firstn room pipe) as [|g0 gr] eqn:G.
  - left. injection H as <- <-. rewrite (firstn_nil_skipn _ _ G). split; [reflexivity|]. split; [reflexivity|].
    destruct pipe as [|p0 pr]; [now left|]. right. split; [discriminate|].
    destruct room eqn:R; [|discriminate G]. split; [exact R|]. split; [exact F|exact FO].
  - right. set (got := g0 :: gr) in *.
    assert (LG : (1 <= length got)%nat) by (cbn; lia).
    destruct (encr c) eqn:E.
    + destruct (negb (r_iv st) && (blklen P <=? length (r_buf st ++ got))%nat) eqn:T.
      * injection H as <- <-. cbn [r_buf r_flag]. split.
        -- intros F1. destruct (skipn (blklen P) (r_buf st ++ got)) eqn:B; [now left|discriminate].
        -- rewrite (skipn_length (blklen P)), app_length. cbn [length] in *. lia.
      * injection H as <- <-. cbn [r_buf r_flag r_iv]. split.
        -- intros F1. destruct (r_iv st) eqn:I; [discriminate|]. right. auto.
        -- rewrite app_length. lia.
    + injection H as <- <-. cbn [r_buf r_flag]. split; [intros F1; discriminate|]. rewrite app_length. lia.
Qed.

(* one call: the measure drops, or the link is stalled for good, or nothing happens any more *)
Lemma call_progress st pipe o st' pipe' : flag_ok st -> recv_call P c nonce st pipe = (o, st', pipe') ->
  flag_ok st' /\
  ((mu st' pipe' < mu st pipe)%nat \/
   (o = Some Stall /\ pipe' = pipe /\ r_flag st' = true /\ recv_parse P c nonce st' = Some (Stall, st')) \/
   (o = None /\ st' = st /\ pipe' = pipe /\ r_flag st = false /\ (pipe = [] \/ stuck st pipe))).
Proof.
  intros FO H. unfold recv_call in H. destruct (r_flag st) eqn:F.
  - pose proof (recv_parse_spec P c nonce st) as S. destruct (recv_parse P c nonce st) as [[o1 st1]|].
    + injection H as <- <- <-. destruct S as (l & t & r & E & PR & Iv & Hb & Hf).
      pose proof (first_record_shorter _ _ _ _ _ E) as L.
      destruct o1.
      1, 2: split; [intros F1; rewrite Hb; rewrite Hf in F1; destruct r; [now left|congruence]|];
        left; unfold mu; rewrite Hb, Hf, F; destruct r; cbn [length] in *; lia.
      split; [intros F1; congruence|]. right. left. repeat split; [congruence|].
      destruct st1 as [b1 f1 i1 q1 c1 d1 h1]. cbn [r_buf r_flag r_iv core_of r_sqn r_chunk r_bad r_hist] in *. subst b1 f1 i1.
      unfold recv_parse. cbn [r_buf core_of r_sqn r_chunk r_bad r_hist]. now rewrite E, (process_stall _ _ _ _ _ _ _ PR), F.
    + destruct (recv_read P c (clear_flag st) pipe) as [st1 p1] eqn:RD. injection H as <- <- <-.
      assert (FO0 : flag_ok (clear_flag st)) by (intros _; now left).
      destruct (read_progress (clear_flag st) pipe st1 p1 eq_refl FO0 RD) as [(-> & -> & _)|[FO1 LE]].
      * split; [exact FO0|]. left. unfold mu. cbn [clear_flag r_buf r_flag]. rewrite F. lia.
      * split; [exact FO1|]. left. unfold mu. cbn [clear_flag r_buf] in LE. rewrite F. destruct (r_flag st1); lia.
  - destruct (recv_read P c st pipe) as [st1 p1] eqn:RD. injection H as <- <- <-.
    destruct (read_progress st pipe st1 p1 F FO RD) as [(-> & -> & Q)|[FO1 LE]].
    + split; [exact FO|]. right. right. auto.
    + split; [exact FO1|]. left. unfold mu. rewrite F. destruct (r_flag st1); lia.
Qed.

(* a call that changes nothing is repeated for good *)
Lemma call_fixed st pipe o : recv_call P c nonce st pipe = (o, st, pipe) ->
  forall n, run P c nonce st pipe (repeat Call n) = (repeat o n, st, pipe).
Proof. intros E. induction n as [|n IH]; [reflexivity|]. cbn [repeat run]. now rewrite E, IH. Qed.

Theorem settle n : forall st pipe os st' pipe', wf st -> flag_ok st -> (mu st pipe < n)%nat ->
  run P c nonce st pipe (repeat Call n) = (os, st', pipe') ->
  deliveries st' pipe' = [] \/ stuck st' pipe'.
Proof.
  induction n as [|n IH]; intros st pipe os st' pipe' W FO M R; [lia|].
  cbn [repeat run] in R.
  destruct (recv_call P c nonce st pipe) as [[o st1] p1] eqn:CS.
  destruct (run P c nonce st1 p1 (repeat Call n)) as [[os2 st2] p2] eqn:RN.
  injection R as <- <- <-.
  destruct (call_consumes P c nonce _ _ _ _ _ [] W CS) as [C W1].
  destruct (call_progress _ _ _ _ _ FO CS) as [FO1 [D|[(-> & -> & F1 & PA)|(_ & -> & -> & F & Q)]]].
  - eapply IH; try eassumption. lia.
  - rewrite (call_fixed st1 pipe (Some Stall)) in RN by (unfold recv_call; now rewrite F1, PA). injection RN as _ <- <-.
    left. rewrite <- (app_nil_r pipe), deliveries_ahead. exact (ahead_stalled _ _ _ _ _ _ _ _ _ C).
  - rewrite (call_fixed st pipe o CS n) in RN. injection RN as _ <- <-.
    destruct Q as [->|S]; [|now right]. left. apply nothing_left; [exact W|]. exact (FO F).
Qed.

Lemma flag_ok0 : flag_ok rstate0.
Proof. intros _. now left. Qed.

Lemma run_flag_ok evs : forall st pipe os st' pipe', flag_ok st ->
  run P c nonce st pipe evs = (os, st', pipe') -> flag_ok st'.
Proof.
  induction evs as [|e r IH]; intros st pipe os st' pipe' FO H.
  - cbn in H. injection H as _ <- _. exact FO.
  - destruct e as [ch|]; cbn [run] in H.
    + eapply IH; eassumption.
    + destruct (recv_call P c nonce st pipe) as [[o st1] p1] eqn:CS.
      destruct (run P c nonce st1 p1 r) as [[os2 st2] p2] eqn:RN. injection H as _ <- _.
      destruct (call_progress _ _ _ _ _ FO CS) as [FO1 _]. eapply IH; eassumption.
Qed.

Lemma run_app evs1 : forall evs2 st pipe os1 st1 p1 os2 st2 p2,
  run P c nonce st pipe evs1 = (os1, st1, p1) -> run P c nonce st1 p1 evs2 = (os2, st2, p2) ->
  run P c nonce st pipe (evs1 ++ evs2) = (os1 ++ os2, st2, p2).
Proof.
  induction evs1 as [|e r IH]; intros evs2 st pipe os1 st1 p1 os2 st2 p2 H1 H2.
  - cbn in H1. injection H1 as <- <- <-. exact H2.
  - destruct e as [ch|]; cbn [run app] in *.
    + eapply IH; eassumption.
    + destruct (recv_call P c nonce st pipe) as [[o sta] pa].
      destruct (run P c nonce sta pa r) as [[osb stb] pb] eqn:RN. injection H1 as <- <- <-.
      rewrite (IH evs2 sta pa osb stb pb os2 st2 p2 RN H2). reflexivity.
Qed.

End Progress.
