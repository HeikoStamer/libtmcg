(* SqrtLemmas -- proofs about SqrtModel (C09): the square root modulo a prime in all three branches (p = 3 mod 4,
   p = 5 mod 8, and the two loops for p = 1 mod 8), and the CRT combination for n = p*q.  "a is a quadratic residue" is
   used in Euler's form a^((p-1)/2) = 1 (mod p) -- the Legendre test; the non-residue b likewise as b^((p-1)/2) = p-1.
   Every branch returns a^e or a^e * b^t with 2e = h + 1 and a^h * b^(2t) = 1, so that the square is a (root_sq). *)
From Coq Require Import ZArith Znumtheory Lia List Bool.
From LT Require Import Zbase SqrtModel.
Import ListNotations.
Local Open Scope Z_scope.

Definition sqrt_ok (a p b : Z) : Prop :=
  exists r, sqrtmp_with a p b = SqOk r /\ 0 <= r < p /\ (r * r) mod p = a mod p.

(* the exponents of the code, by the residue class of p (linear arithmetic once / and mod are named) *)
Lemma exps_3mod4 (p : Z) : 0 < p -> p mod 4 = 3 -> 0 <= (p - 1) / 2 /\ 2 * ((p + 1) / 4) = (p - 1) / 2 + 1.
Proof. intros. Z.to_euclidean_division_equations. lia. Qed.

Lemma exps_1mod4 (p : Z) : 1 < p -> p mod 8 = 5 \/ p mod 8 = 1 ->
  p mod 4 = 1 /\ 0 < (p - 1) / 4 < p /\ 2 * ((p - 1) / 4) = (p - 1) / 2.
Proof. intros. Z.to_euclidean_division_equations. lia. Qed.

Lemma exps_5mod8 (p : Z) : p mod 8 = 5 -> 2 * ((p + 3) / 8) = (p - 1) / 4 + 1.
Proof. intros. Z.to_euclidean_division_equations. lia. Qed.

Lemma odd_classes (p : Z) : p mod 2 = 1 -> p mod 4 = 3 \/ p mod 8 = 5 \/ p mod 8 = 1.
Proof. intros. Z.to_euclidean_division_equations. lia. Qed.

Lemma even_half (s : Z) : Z.even s = true -> s = 2 * (s / 2).
Proof. intros E. pose proof (Zmod_even s) as M. rewrite E in M. Z.to_euclidean_division_equations. lia. Qed.

Lemma odd_half (s : Z) : Z.odd s = true -> 2 * ((s + 1) / 2) = s + 1.
Proof. intros E. pose proof (Zmod_odd s) as M. rewrite E in M. Z.to_euclidean_division_equations. lia. Qed.

Lemma sq_powm (a e p : Z) : 0 < p -> 0 <= e -> (powm a e p * powm a e p) mod p = powm a (2 * e) p.
Proof. intros. replace (2 * e) with (e + e) by lia. now rewrite powm_add by lia. Qed.

Lemma sq_mul (a b s t p : Z) : 0 < p -> 0 <= s -> 0 <= t ->
  ((powm a s p * powm b t p) mod p * ((powm a s p * powm b t p) mod p)) mod p = (powm a (2 * s) p * powm b (2 * t) p) mod p.
Proof.
  intros. rewrite <- Zmult_mod, <- !sq_powm, <- Zmult_mod by lia. f_equal. ring.
Qed.

Lemma powm_succ_half (a e h p : Z) : 0 < p -> 0 <= h -> 2 * e = h + 1 -> powm a (2 * e) p = (powm a h p * a) mod p.
Proof. intros Hp Hh ->. rewrite powm_add, powm_1_r by lia. apply Zmult_mod_idemp_r. Qed.

Lemma root_sq (a e h p : Z) : 0 < p -> 0 <= h -> 2 * e = h + 1 -> powm a h p = 1 ->
  (powm a e p * powm a e p) mod p = a mod p.
Proof. intros Hp Hh E H1. now rewrite sq_powm, (powm_succ_half a e h), H1, Z.mul_1_l by lia. Qed.

Lemma root_sq_with (a b e h t p : Z) : 0 < p -> 0 <= h -> 0 <= t -> 2 * e = h + 1 ->
  (powm a h p * powm b (2 * t) p) mod p = 1 ->
  ((powm a e p * powm b t p) mod p * ((powm a e p * powm b t p) mod p)) mod p = a mod p.
Proof.
  intros Hp Hh Ht E H1. rewrite sq_mul, (powm_succ_half a e h), Zmult_mod_idemp_l by lia.
  replace (powm a h p * a * powm b (2 * t) p) with (powm a h p * powm b (2 * t) p * a) by ring.
  now rewrite <- Zmult_mod_idemp_l, H1, Z.mul_1_l.
Qed.

(* square roots of 1 modulo a prime *)
Lemma sqrt_one_prime (p x : Z) : prime p -> 0 <= x < p -> (x * x) mod p = 1 -> x = 1 \/ x = p - 1.
Proof.
  intros Hp Hx H. pose proof (prime_ge_2 _ Hp) as P2.
  assert (D : (p | (x - 1) * (x + 1))).
  { replace ((x - 1) * (x + 1)) with (x * x - 1) by ring. apply Zmod_divide_minus; [lia|assumption]. }
  apply prime_mult in D; [|assumption]. destruct D as [[k D]|[k D]].
  - left. assert (k = 0) by nia. lia.
  - right. assert (k = 1) by nia. lia.
Qed.

Lemma powm_half_one (a s p : Z) : prime p -> 0 <= s -> powm a (2 * s) p = 1 -> powm a s p = 1 \/ powm a s p = p - 1.
Proof.
  intros Pp Hs H. pose proof (prime_ge_2 _ Pp). apply sqrt_one_prime; [assumption|apply powm_range; lia|].
  now rewrite sq_powm by lia.
Qed.

Lemma minus_one_sq (p : Z) : 1 < p -> ((p - 1) * (p - 1)) mod p = 1.
Proof.
  intros. replace ((p - 1) * (p - 1)) with (1 + (p - 2) * p) by ring.
  rewrite Z.mod_add by lia. apply Z.mod_1_l. lia.
Qed.

(* p = 3 (mod 4): no primality needed *)
Lemma root_3mod4 (a p : Z) : 0 < p -> p mod 4 = 3 -> powm a ((p - 1) / 2) p = 1 ->
  0 <= powm a ((p + 1) / 4) p < p /\ (powm a ((p + 1) / 4) p * powm a ((p + 1) / 4) p) mod p = a mod p.
Proof.
  intros Hp H3 HQ. destruct (exps_3mod4 p Hp H3) as [Hh E].
  split; [apply powm_range; lia|now apply (root_sq a _ ((p - 1) / 2))].
Qed.

Corollary sqrt_ok_3mod4 (a p b : Z) : 0 < p -> p mod 4 = 3 -> a <> 0 -> powm a ((p - 1) / 2) p = 1 -> sqrt_ok a p b.
Proof.
  intros Hp H3 Ha HQ. unfold sqrt_ok, sqrtmp_with.
  destruct (Z.eqb_spec p 2) as [E2|_]; [rewrite E2 in H3; discriminate H3|].
  destruct (Z.eqb_spec a 0); [contradiction|]. rewrite H3. cbn [Z.eqb Pos.eqb].
  eexists. split; [reflexivity|]. now apply root_3mod4.
Qed.

(* p = 5 (mod 8): a^((p-1)/4) is 1 or -1; in the second case b^((p-1)/4) supplies a square root of -1 *)
Corollary sqrt_ok_5mod8 (a p b : Z) : prime p -> p mod 8 = 5 -> a <> 0 ->
  powm a ((p - 1) / 2) p = 1 -> powm b ((p - 1) / 2) p = p - 1 -> sqrt_ok a p b.
Proof.
  intros Pp H5 Ha HQ HN. pose proof (prime_ge_2 _ Pp) as P2.
  destruct (exps_1mod4 p ltac:(lia) (or_introl H5)) as (E4 & Hs & E2). pose proof (exps_5mod8 p H5) as Er.
  unfold sqrt_ok, sqrtmp_with.
  destruct (Z.eqb_spec p 2) as [E2'|N2]; [rewrite E2' in H5; discriminate H5|].
  destruct (Z.eqb_spec a 0); [contradiction|]. rewrite E4, H5. cbn [Z.eqb Pos.eqb].
  rewrite <- E2 in HQ, HN. set (s := (p - 1) / 4) in *.
  destruct (powm_half_one a s p Pp ltac:(lia) HQ) as [F|F]; rewrite F.
  - eexists. split; [reflexivity|]. split; [apply powm_range; lia|]. now apply (root_sq a _ s); try lia.
  - destruct (Z.eqb_spec (p - 1) 1); [lia|].
    eexists. split; [reflexivity|]. split; [apply Z.mod_pos_bound; lia|].
    apply (root_sq_with a b _ s s); try lia. rewrite F, HN. apply minus_one_sq. lia.
Qed.

(* p = 2: answered by the guard (every residue is its own square root), also for a = 0 *)
Lemma sqrt_ok_2 (a b : Z) : sqrt_ok a 2 b.
Proof.
  unfold sqrt_ok, sqrtmp_with. cbn [Z.eqb Pos.eqb]. eexists. split; [reflexivity|].
  rewrite (Zmod_odd a). destruct (Z.odd a); cbn; lia.
Qed.

(* the fuel of both loops covers every s below p *)
Lemma log2_up_fuel (p s : Z) : 0 < s < p -> s < 2 ^ Z.of_nat (sq_fuel p).
Proof.
  intros Hs. unfold sq_fuel. rewrite Nat2Z.inj_succ, Z2Nat.id by apply Z.log2_up_nonneg.
  rewrite Z.pow_succ_r by apply Z.log2_up_nonneg.
  pose proof (Z.log2_up_spec p ltac:(lia)). lia.
Qed.

(* p = 1 (mod 8): the two loops (Tonelli-Shanks in the formulation of the code) *)
Section TS.
  Variables a p b : Z.
  Hypothesis Pp : prime p.
  Hypothesis P8 : p mod 8 = 1.
  Hypothesis HQ : powm a ((p - 1) / 2) p = 1.
  Hypothesis HN : powm b ((p - 1) / 2) p = p - 1.

  Let P2 : 2 < p.
  Proof. pose proof (prime_ge_2 _ Pp). assert (p <> 2) by (intros E; rewrite E in P8; discriminate P8). lia. Qed.

  (* halving s while a^s = 1: ends in a root (s odd) or in a divisor s1 of s with a^s1 = -1 *)
  Lemma ts_loop1_spec : forall fuel s, 0 < s < 2 ^ Z.of_nat fuel -> powm a (2 * s) p = 1 ->
    exists res, ts_loop1 fuel a p s = Some res /\
      match res with
      | inl r => 0 <= r < p /\ (r * r) mod p = a mod p
      | inr s1 => 0 < s1 /\ (s1 | s) /\ powm a s1 p = p - 1
      end.
  Proof.
    induction fuel as [|fuel IH]; intros s Hs H2; [cbn in Hs; lia|].
    cbn [ts_loop1]. destruct (powm_half_one a s p Pp ltac:(lia) H2) as [E1|E1]; rewrite E1.
    - cbn [Z.eqb Pos.eqb]. destruct (Z.odd s) eqn:Od.
      + pose proof (odd_half s Od). eexists. split; [reflexivity|].
        split; [apply powm_range; lia|now apply (root_sq a _ s); try lia].
      + assert (Ev : s = 2 * (s / 2)) by (apply even_half; now rewrite <- Z.negb_odd, Od).
        destruct (IH (s / 2)) as (res & Er & Hr).
        * rewrite Nat2Z.inj_succ, Z.pow_succ_r in Hs by lia. lia.
        * now rewrite <- Ev.
        * exists res. split; [exact Er|]. destruct res as [r|s1]; [exact Hr|].
          destruct Hr as (H0 & D & H3). split; [assumption|]. split; [|assumption].
          rewrite Ev. now apply Z.divide_mul_r.
    - destruct (Z.eqb_spec (p - 1) 1); [lia|]. eexists. split; [reflexivity|]. cbn beta iota.
      split; [lia|]. split; [apply Z.divide_refl|assumption].
  Qed.

  (* invariant of the second loop: a^s * b^t = 1, where t and (p-1)/2 are multiples of 2s *)
  Definition ts_inv (s t : Z) : Prop :=
    0 < s /\ (powm a s p * powm b t p) mod p = 1 /\
    exists u c, 0 <= u /\ 0 <= c /\ t = 2 * s * u /\ (p - 1) / 2 = 2 * s * c.

  (* one round: a^s' * b^(t/2) is a square root of a^s * b^t = 1; if it is -1, b^((p-1)/2) = -1 corrects the sign *)
  Lemma ts_step (s' t : Z) : ts_inv (2 * s') t ->
    ts_inv s' (if ((powm a s' p * powm b (t / 2) p) mod p + 1) mod p =? 0 then t / 2 + (p - 1) / 2 else t / 2).
  Proof.
    intros (S0 & Prod & u & c & Hu & Hc & Ht & Hpc).
    assert (Et : t / 2 = 2 * s' * u) by (rewrite Ht; replace (2 * (2 * s') * u) with (2 * s' * u * 2) by ring; apply Z.div_mul; lia).
    set (foo := (powm a s' p * powm b (t / 2) p) mod p).
    assert (F2 : (foo * foo) mod p = 1).
    { unfold foo. rewrite sq_mul by nia. now replace (2 * (t / 2)) with t by lia. }
    destruct (sqrt_one_prime p foo Pp ltac:(apply Z.mod_pos_bound; lia) F2) as [F|F]; rewrite F.
    - rewrite (Z.mod_small (1 + 1)) by lia. cbn [Z.eqb Z.add Pos.add]. fold foo.
      split; [lia|]. split; [exact F|]. exists u, (2 * c). split; [lia|]. split; [lia|]. split; [lia|]. rewrite Hpc. ring.
    - rewrite Z.sub_add, Z_mod_same_full. cbn [Z.eqb].
      split; [lia|]. split.
      + rewrite powm_add, HN, Zmult_mod_idemp_r, Z.mul_assoc, <- Zmult_mod_idemp_l by nia. fold foo. rewrite F.
        apply minus_one_sq. lia.
      + exists (u + 2 * c), (2 * c). split; [lia|]. split; [lia|]. split; [rewrite Et, Hpc; ring|rewrite Hpc; ring].
  Qed.

  Lemma ts_loop2_spec : forall fuel s t, s < 2 ^ Z.of_nat fuel -> ts_inv s t ->
    exists s2 t2, ts_loop2 fuel a p b s t = Some (s2, t2) /\ ts_inv s2 t2 /\ Z.odd s2 = true.
  Proof.
    induction fuel as [|fuel IH]; intros s t Hs Inv; [destruct Inv as [H0 _]; cbn in Hs; lia|].
    cbn [ts_loop2]. destruct (Z.even s) eqn:Ev.
    - apply IH.
      + destruct Inv as [H0 _]. rewrite Nat2Z.inj_succ, Z.pow_succ_r in Hs by lia. pose proof (even_half s Ev). lia.
      + apply ts_step. now rewrite <- even_half.
    - exists s, t. split; [reflexivity|]. split; [assumption|]. now rewrite <- Z.negb_even, Ev.
  Qed.

  Theorem sqrt_ok_1mod8 : a <> 0 -> sqrt_ok a p b.
  Proof.
    intros Ha. unfold sqrt_ok, sqrtmp_with. destruct (Z.eqb_spec p 2) as [E2|_]; [lia|].
    destruct (Z.eqb_spec a 0); [contradiction|].
    destruct (exps_1mod4 p ltac:(lia) (or_intror P8)) as (E4 & Hs0 & Eh). rewrite E4, P8. cbn [Z.eqb Pos.eqb].
    set (s0 := (p - 1) / 4) in *.
    destruct (ts_loop1_spec (sq_fuel p) s0 ltac:(split; [lia|apply log2_up_fuel; lia]) ltac:(now rewrite Eh))
      as (res & E1 & Hr).
    rewrite E1. destruct res as [r|s1]; [exists r; split; [reflexivity|exact Hr]|].
    destruct Hr as (S1 & [c1 Hc1] & A1). assert (C1 : 0 < c1) by nia.
    assert (Inv : ts_inv s1 ((p - 1) / 2)).
    { split; [assumption|]. split; [rewrite A1, HN; apply minus_one_sq; lia|].
      exists c1, c1. rewrite <- Eh, Hc1. split; [lia|]. split; [lia|]. split; ring. }
    destruct (ts_loop2_spec (sq_fuel p) s1 ((p - 1) / 2) (log2_up_fuel p s1 ltac:(nia)) Inv)
      as (s2 & t2 & E2 & (S2 & Prod & u & _ & Hu & _ & Ht & _) & Od).
    rewrite E2. eexists. split; [reflexivity|]. split; [apply Z.mod_pos_bound; lia|].
    apply (root_sq_with a b _ s2); try lia.
    - apply Z.div_pos; nia.
    - now apply odd_half.
    - replace (2 * (t2 / 2)) with t2; [exact Prod|]. rewrite Ht. replace (2 * s2 * u) with (s2 * u * 2) by ring.
      rewrite Z.div_mul; lia.
  Qed.
End TS.

(* every prime (2 through the guard; odd primes: every residue class modulo 8, any 2-adic order of p - 1) *)
Theorem sqrtmp_ok (a p b : Z) : prime p -> a <> 0 ->
  powm a ((p - 1) / 2) p = 1 -> powm b ((p - 1) / 2) p = p - 1 -> sqrt_ok a p b.
Proof.
  intros Pp Ha HQ HN. pose proof (prime_ge_2 _ Pp) as P2.
  destruct (Z.eq_dec p 2) as [->|N2]; [apply sqrt_ok_2|].
  assert (Odd : p mod 2 = 1).
  { pose proof (Z.mod_pos_bound p 2 ltac:(lia)). destruct (Z.eq_dec (p mod 2) 0) as [E|E]; [|lia].
    apply Z.mod_divide in E; [|lia]. apply (prime_divisors p Pp) in E. lia. }
  destruct (odd_classes p Odd) as [C|[C|C]].
  - apply sqrt_ok_3mod4; try assumption; lia.
  - now apply sqrt_ok_5mod8.
  - now apply sqrt_ok_1mod8.
Qed.

Lemma crt_divide (p q x : Z) (u v : Z) : u * p + v * q = 1 -> (p | x) -> (q | x) -> (p * q | x).
Proof.
  (* x = k p, and q | k p with gcd q p = 1 gives q | k (Gauss) *)
  intros B [k ->] D. rewrite (Z.mul_comm k). apply Z.mul_divide_mono_l, (Z.gauss q p); [now rewrite Z.mul_comm|].
  apply Zgcd_1_rel_prime, bezout_rel_prime, (Bezout_intro q p 1 v u). lia.
Qed.

(* x = +-r (mod m) and r^2 = a (mod m) give x^2 = a (mod m) *)
Lemma sq_cong_divide (m x r a : Z) : 0 < m -> (m | x - r) \/ (m | x + r) -> (r * r) mod m = a mod m -> (m | x * x - a).
Proof.
  intros Hm D S. replace (x * x - a) with ((x - r) * (x + r) + (r * r - a)) by ring. apply Z.divide_add_r.
  - destruct D; [now apply Z.divide_mul_l|now apply Z.divide_mul_r].
  - apply Z.mod_divide; [lia|]. rewrite Zminus_mod, S, Z.sub_diag. apply Zmod_0_l.
Qed.

(* a value congruent to rp modulo p and to +-rq modulo q squares to a modulo p*q *)
Lemma crt_square (a p q u v rp rq x : Z) : 0 < p -> 0 < q -> u * p + v * q = 1 ->
  (rp * rp) mod p = a mod p -> (rq * rq) mod q = a mod q ->
  (p | x - rp) -> (q | x - rq) \/ (q | x + rq) ->
  (x * x) mod (p * q) = a mod (p * q).
Proof.
  intros Hp Hq B Sp Sq Dp Dq.
  destruct (crt_divide p q (x * x - a) u v B) as [k D].
  - apply (sq_cong_divide p x rp); auto.
  - apply (sq_cong_divide q x rq); auto.
  - replace (x * x) with (a + k * (p * q)) by lia. apply Z.mod_add. nia.
Qed.

Lemma neg_divide (n r d y : Z) : (d | n) -> (d | r - y) -> (d | (n - r) + y).
Proof. intros [c Dn] [k D]. exists (c - k). lia. Qed.

(* with x also x mod n and n - x mod n square to a *)
Lemma sq_mod_neg (n x a : Z) : 0 < n -> (x * x) mod n = a mod n ->
  (x mod n * (x mod n)) mod n = a mod n /\ ((n - x mod n) * (n - x mod n)) mod n = a mod n.
Proof.
  intros Hn S. rewrite <- Zmult_mod. split; [assumption|].
  replace ((n - x mod n) * (n - x mod n)) with (x mod n * (x mod n) + (n - 2 * (x mod n)) * n) by ring.
  now rewrite Z.mod_add, <- Zmult_mod by lia.
Qed.

(* rq*u*p + rp*v*q is rp modulo p (and, by symmetry, rq modulo q) *)
Lemma crt_residue (u v p q rp rq : Z) : u * p + v * q = 1 -> (p | rq * u * p + rp * v * q - rp).
Proof. intros B. exists ((rq - rp) * u). replace (rp * v * q) with (rp * (1 - u * p)) by (rewrite <- B; ring). ring. Qed.

Definition all_square (a n : Z) (r : Z * Z * Z * Z) : Prop :=
  let '(r1, r2, r3, r4) := r in
  (r1 * r1) mod n = a mod n /\ (r2 * r2) mod n = a mod n /\ (r3 * r3) mod n = a mod n /\ (r4 * r4) mod n = a mod n.

Theorem crt_roots_square (a p q u v rp rq : Z) : 0 < p -> 0 < q -> u * p + v * q = 1 ->
  (rp * rp) mod p = a mod p -> (rq * rq) mod q = a mod q ->
  all_square a (p * q) (crt_roots rp rq u v p q (p * q)).
Proof.
  intros Hp Hq B Sp Sq. assert (B' : v * q + u * p = 1) by lia. assert (Hn : 0 < p * q) by nia.
  (* the four roots are x mod n, n - x mod n for two values x: group the conjuncts in pairs, sq_mod_neg closes each pair *)
  unfold crt_roots, all_square. cbv zeta. rewrite <- and_assoc. split; apply sq_mod_neg; try assumption.
  - apply (crt_square a p q u v rp rq); auto; [now apply crt_residue|].
    left. rewrite Z.add_comm. now apply crt_residue.
  - apply (crt_square a p q u v rp rq); auto; [now apply crt_residue|].
    right. rewrite (Z.add_comm (- rq * u * p)), <- (Z.sub_opp_r _ rq). now apply crt_residue.
Qed.

Theorem sqrtmn_all_ok (a p q u v bp bq : Z) : 0 < p -> 0 < q -> u * p + v * q = 1 ->
  sqrt_ok a p bp -> sqrt_ok a q bq ->
  exists r, sqrtmn_all_with a p q (p * q) u v bp bq = inl (Some r) /\ all_square a (p * q) r.
Proof.
  intros Hp Hq B (rp & Ep & _ & Sp) (rq & Erq & _ & Sq). unfold sqrtmn_all_with.
  assert (G : Z.gcd p q = 1).
  { apply Zgcd_1_rel_prime. apply bezout_rel_prime. apply (Bezout_intro p q 1 u v). lia. }
  rewrite G, Ep, Erq. cbn [Z.eqb Pos.eqb negb].
  eexists. split; [reflexivity|]. now apply crt_roots_square.
Qed.

Lemma smallest4_in (r1 r2 r3 r4 : Z) :
  let m := smallest4 (r1, r2, r3, r4) in m = r1 \/ m = r2 \/ m = r3 \/ m = r4.
Proof.
  unfold smallest4.
  destruct (Z.abs r2 <? Z.abs r1); destruct (Z.abs r3 <? Z.abs _); destruct (Z.abs r4 <? Z.abs _); auto.
Qed.

Theorem sqrtmn_ok (a p q u v bp bq : Z) : 0 < p -> 0 < q -> u * p + v * q = 1 ->
  sqrt_ok a p bp -> sqrt_ok a q bq ->
  exists r, sqrtmn_with a p q (p * q) u v bp bq = SqOk r /\ (r * r) mod (p * q) = a mod (p * q).
Proof.
  intros Hp Hq B Op Oq. destruct (sqrtmn_all_ok a p q u v bp bq Hp Hq B Op Oq) as ([[[r1 r2] r3] r4] & E & S).
  unfold sqrtmn_with. rewrite E. eexists. split; [reflexivity|].
  destruct S as (S1 & S2 & S3 & S4).
  destruct (smallest4_in r1 r2 r3 r4) as [H | [H | [H | H]]]; cbv zeta in H; rewrite H; assumption.
Qed.

(* Blum integers through the precomputed path of TMCG_SecretKey: up = u*p, vq = v*q, exponents (p+1)/4, (q+1)/4 *)
Theorem sqrtmn_fast_ok (a p q u v : Z) : 0 < p -> 0 < q -> p mod 4 = 3 -> q mod 4 = 3 -> u * p + v * q = 1 ->
  powm a ((p - 1) / 2) p = 1 -> powm a ((q - 1) / 2) q = 1 ->
  all_square a (p * q) (sqrtmn_fast_all a p q (p * q) (u * p) (v * q) ((p + 1) / 4) ((q + 1) / 4)) /\
  let r := sqrtmn_fast a p q (p * q) (u * p) (v * q) ((p + 1) / 4) ((q + 1) / 4) in
  (r * r) mod (p * q) = a mod (p * q).
Proof.
  intros Hp Hq P3 Q3 B HQp HQq.
  pose proof (crt_roots_square a p q u v _ _ Hp Hq B (proj2 (root_3mod4 a p Hp P3 HQp)) (proj2 (root_3mod4 a q Hq Q3 HQq))) as C.
  unfold sqrtmn_fast_all, sqrtmn_fast. unfold crt_roots in C. cbv zeta in *. rewrite !Z.mul_assoc.
  split; [exact C|apply C].
Qed.

Corollary sqrtmn_two_primes_ok (a p q u v bp bq : Z) : prime p -> prime q -> a <> 0 ->
  u * p + v * q = 1 ->
  powm a ((p - 1) / 2) p = 1 -> powm bp ((p - 1) / 2) p = p - 1 ->
  powm a ((q - 1) / 2) q = 1 -> powm bq ((q - 1) / 2) q = q - 1 ->
  (exists r, sqrtmn_all_with a p q (p * q) u v bp bq = inl (Some r) /\ all_square a (p * q) r) /\
  (exists r, sqrtmn_with a p q (p * q) u v bp bq = SqOk r /\ (r * r) mod (p * q) = a mod (p * q)).
Proof.
  intros Pp Pq Ha B H1 H2 H3 H4.
  pose proof (prime_ge_2 _ Pp). pose proof (prime_ge_2 _ Pq).
  pose proof (sqrtmp_ok a p bp Pp Ha H1 H2) as Op. pose proof (sqrtmp_ok a q bq Pq Ha H3 H4) as Oq.
  split; [apply sqrtmn_all_ok|apply sqrtmn_ok]; auto; lia.
Qed.
