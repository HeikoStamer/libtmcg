(* PrimeLemmas -- postconditions of the prime generators (C09) over PrimeModel, for every primality oracle. *)
From Coq Require Import ZArith Znumtheory Lia List Bool.
From LT Require Import Zbase PowmModel PrimeModel.
Import ListNotations.
Local Open Scope Z_scope.

Lemma bitlen_log2 (x : Z) : 0 < x -> bitlen x = Z.log2 x + 1.
Proof. intros. unfold bitlen. destruct (Z.eqb_spec x 0); [lia|]. now rewrite Z.abs_eq by lia. Qed.

Lemma bitlen_le (a b : Z) : 0 <= a <= b -> bitlen a <= bitlen b.
Proof.
  intros H. destruct (Z.eq_dec a 0) as [->|].
  - unfold bitlen at 1. cbn. destruct (Z.eq_dec b 0) as [->|]; [cbn; lia|].
    rewrite bitlen_log2 by lia. pose proof (Z.log2_nonneg b). lia.
  - rewrite !bitlen_log2 by lia. pose proof (Z.log2_le_mono a b). lia.
Qed.

Lemma bitlen_double_succ (q : Z) : 0 < q -> bitlen (2 * q + 1) = bitlen q + 1.
Proof. intros. rewrite !bitlen_log2 by lia. rewrite Z.log2_succ_double by lia. lia. Qed.

Section Oracle.
  Variable is_prime : Z -> bool.

  Lemma lprime_adjust_even (k : Z) : Z.even (lprime_adjust k) = true.
  Proof. unfold lprime_adjust. destruct (Z.odd k) eqn:O; [rewrite Z.even_add|]; now rewrite <- Z.negb_odd, O. Qed.

  Lemma lprime_ks_post (psize qsize q : Z) : forall kcands p k, lprime_ks is_prime psize qsize q kcands = Some (p, k) ->
    p = q * k + 1 /\ Z.even k = true /\ Z.gcd k q = 1 /\ psize <= bitlen p /\ is_prime p = true.
  Proof.
    induction kcands as [|kraw tl IH]; intros p k E; cbn [lprime_ks] in E; [discriminate|].
    destruct (psize - qsize <=? bitlen kraw); [|now apply IH].
    destruct (lprime_try is_prime psize q kraw) as [[p' k']|] eqn:ET; [|now apply IH].
    inversion E; subst p' k'; clear E. unfold lprime_try in ET.
    destruct (_ && _ && _) eqn:C; inversion ET; subst p k; clear ET.
    rewrite !andb_true_iff, Z.eqb_eq, Z.leb_le in C. pose proof (lprime_adjust_even kraw). tauto.
  Qed.

  (* p = kq + 1 with both (probably) prime, gcd(k,q) = 1, k even, sizes at least the requested ones *)
  Theorem lprime_post (psize qsize : Z) (qcands kcands : list Z) (p q k : Z) :
    lprime_run is_prime psize qsize qcands kcands = GenOk p q k ->
    p = q * k + 1 /\ Z.even k = true /\ Z.gcd k q = 1 /\ psize <= bitlen p /\ qsize <= bitlen q /\
    is_prime p = true /\ is_prime q = true /\ qsize < psize.
  Proof.
    unfold lprime_run. destruct (Z.leb_spec psize qsize); [discriminate|].
    destruct (find (lprime_q_ok is_prime qsize) qcands) as [q'|] eqn:EQ; [|discriminate].
    destruct (lprime_ks is_prime psize qsize q' kcands) as [[p' k']|] eqn:EK; [|discriminate].
    intros E; inversion E; subst p' q' k'; clear E.
    apply find_some in EQ. destruct EQ as [_ EQ]. unfold lprime_q_ok in EQ. rewrite andb_true_iff, Z.leb_le in EQ.
    apply lprime_ks_post in EK. tauto.
  Qed.

  Theorem lprime_sizes_throw (psize qsize : Z) (qcands kcands : list Z) : psize <= qsize ->
    lprime_run is_prime psize qsize qcands kcands = GenThrow.
  Proof. intros H. unfold lprime_run. destruct (Z.leb_spec psize qsize); [reflexivity|lia]. Qed.

  (* safe-prime search: whatever it returns satisfies p = 2q + 1, q odd and at least qsize bits, p at least qsize + 1 bits,
     the additional congruence, q accepted by the oracle and the Pocklington relation 2^q = +-1 (mod p) *)
  Theorem sprime_post (t : test_kind) (qsize qraw q p : Z) : 0 <= qraw ->
    sprime_accepts is_prime t qsize qraw q p = true ->
    p = 2 * q + 1 /\ Z.odd q = true /\ qsize <= bitlen q /\ qsize + 1 <= bitlen p /\
    extra_test t p = true /\ is_prime q = true /\ (powm 2 q p = 1 \/ powm 2 q p = p - 1).
  Proof.
    intros H0. unfold sprime_accepts, sprime_start, sprime_final.
    destruct (Z.leb_spec qsize (bitlen qraw)) as [S|S]; [|discriminate].
    rewrite !andb_true_iff, orb_true_iff, Z.ltb_lt, !Z.eqb_eq.
    (* the start value q0 is qraw made odd *)
    set (q0 := if Z.even qraw then qraw + 1 else qraw).
    assert (Hq0 : qraw <= q0 /\ Z.odd q0 = true).
    { unfold q0. destruct (Z.even qraw) eqn:Ev; [rewrite Z.odd_add|]; rewrite <- Z.negb_even, Ev; split; reflexivity || lia. }
    (* in the nesting of the && in sprime_accepts and sprime_final: ((start && even) && p = 2q+1) && ((test && 2^q = +-1) && prime) *)
    intros (((L & Ev) & ->) & (T & F) & P).
    assert (Oq : Z.odd q = true).
    { replace q with (q0 + (q - q0)) by ring. now rewrite Z.odd_add, (proj2 Hq0), <- Z.negb_even, Ev. }
    pose proof (bitlen_le qraw q ltac:(lia)). rewrite bitlen_double_succ by lia.
    repeat split; trivial; lia.
  Qed.

  (* tmcg_mpz_sprime3mod4(p, psize) = search with qsize = psize - 1 and the 3 (mod 4) test: a Blum prime of full size *)
  Corollary sprime3mod4_post (psize qraw q p : Z) : 0 <= qraw ->
    sprime_accepts is_prime Test3mod4 (psize - 1) qraw q p = true -> p mod 4 = 3 /\ psize <= bitlen p /\ p = 2 * q + 1.
  Proof.
    intros H0 A. apply sprime_post in A; [|assumption]. destruct A as (E & _ & _ & B & T & _).
    cbn [extra_test] in T. repeat split; try assumption; lia.
  Qed.

  (* tmcg_mpz_sprime2g: p = 7 (mod 8), so that 2 generates the quadratic residues *)
  Corollary sprime2g_post (qsize qraw q p : Z) : 0 <= qraw ->
    sprime_accepts is_prime Test7mod8 qsize qraw q p = true -> p mod 8 = 7 /\ p = 2 * q + 1 /\ qsize <= bitlen q.
  Proof.
    intros H0 A. apply sprime_post in A; [|assumption]. destruct A as (E & _ & B & _ & T & _).
    cbn [extra_test] in T. repeat split; try assumption; lia.
  Qed.
End Oracle.
