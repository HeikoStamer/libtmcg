(* RbcLemmas: single-party lemmas about RbcModel (C14): the message handler and one call of Deliver by cases
   (hcase, dcase), and what one call of Deliver can do to the channel, the FIFO counters and the per-sender buffers. *)
From Coq Require Import ZArith List Bool Lia FinFun.
From LT Require Import RbcModel.
Import ListNotations.
Local Open Scope Z_scope.

Lemma tag_eqb_eq : forall a b, tag_eqb a b = true <-> a = b.
Proof.
  intros [[a1 a2] a3] [[b1 b2] b3]; unfold tag_eqb.
  rewrite !andb_true_iff, !Z.eqb_eq. split.
  - intros [[-> ->] ->]; reflexivity.
  - intros E; inversion E; auto.
Qed.
Lemma tag_eqb_refl : forall a, tag_eqb a a = true.
Proof. intros; apply tag_eqb_eq; reflexivity. Qed.
Lemma tag_eqb_neq : forall a b, tag_eqb a b = false <-> a <> b.
Proof.
  intros a b. destruct (tag_eqb a b) eqn:E.
  - apply tag_eqb_eq in E. split; congruence.
  - split; auto. intros _ E2. apply tag_eqb_eq in E2. congruence.
Qed.

Lemma updZ_same : forall A (f : Z -> A) k v, updZ f k v k = v.
Proof. intros; unfold updZ; rewrite Z.eqb_refl; reflexivity. Qed.
Lemma updZ_other : forall A (f : Z -> A) k v x, x <> k -> updZ f k v x = f x.
Proof. intros; unfold updZ. destruct (Z.eqb_spec x k); congruence. Qed.

Lemma range_nodup : forall n, NoDup (range n).
Proof.
  intros n. unfold range. apply Injective_map_NoDup; [|apply seq_NoDup].
  intros a b E. lia.
Qed.
Lemma range_in : forall n i, In i (range n) <-> 0 <= i < n.
Proof.
  intros n i. unfold range. rewrite in_map_iff. split.
  - intros (k & <- & I). apply in_seq in I. lia.
  - intros R. exists (Z.to_nat i). split; [lia|]. apply in_seq. lia.
Qed.
Lemma range_length : forall k, 0 <= k -> Z.of_nat (length (range k)) = k.
Proof. intros k K. unfold range. rewrite map_length, seq_length. lia. Qed.

Lemma upd2_same : forall f k d v, upd2 f k d v k d = v.
Proof. intros. unfold upd2. rewrite tag_eqb_refl, Z.eqb_refl. reflexivity. Qed.
Lemma updT_same : forall A (f : tagT -> A) k v, updT f k v k = v.
Proof. intros. unfold updT. rewrite tag_eqb_refl. reflexivity. Qed.

Lemma upd2_cases : forall f k d v x y, upd2 f k d v x y = f x y \/ (x = k /\ y = d /\ upd2 f k d v x y = v).
Proof.
  intros. unfold upd2. destruct (tag_eqb x k && (y =? d)) eqn:C; auto.
  apply andb_true_iff in C. destruct C as [C1 C2]. apply tag_eqb_eq in C1. apply Z.eqb_eq in C2. auto.
Qed.
Lemma upd2_bump : forall f k d x y,
  upd2 f k d (f k d + 1) x y = f x y \/ (x = k /\ y = d /\ upd2 f k d (f k d + 1) x y = f x y + 1).
Proof. intros. destruct (upd2_cases f k d (f k d + 1) x y) as [E|(-> & -> & E)]; auto. Qed.
Lemma updT_cases : forall A (f : tagT -> A) k v x, updT f k v x = f x \/ (x = k /\ updT f k v x = v).
Proof. intros. unfold updT. destruct (tag_eqb x k) eqn:C; auto. apply tag_eqb_eq in C. auto. Qed.

(* destruct every if / match scrutinee in the goal *)
Ltac break :=
  repeat match goal with
  | |- context [if ?b then _ else _] => destruct b eqn:?
  | |- context [match ?x with _ => _ end] => destruct x eqn:?
  end.

(* boolean hypotheses to propositions *)
Ltac b2p :=
  repeat match goal with
  | H : _ && _ = true |- _ => apply andb_true_iff in H; destruct H
  | H : _ || _ = false |- _ => apply orb_false_iff in H; destruct H
  | H : negb _ = true |- _ => apply negb_true_iff in H
  | H : negb _ = false |- _ => apply negb_false_iff in H
  | H : (_ =? _) = true |- _ => apply Z.eqb_eq in H
  | H : tag_eqb _ _ = true |- _ => apply tag_eqb_eq in H
  | H : tag_eqb _ _ = false |- _ => apply tag_eqb_neq in H
  | H : (_ =? _) = false |- _ => apply Z.eqb_neq in H
  | H : (_ <? _) = true |- _ => apply Z.ltb_lt in H
  | H : (_ <? _) = false |- _ => apply Z.ltb_ge in H
  | H : (_ <=? _) = true |- _ => apply Z.leb_le in H
  | H : (_ <=? _) = false |- _ => apply Z.leb_gt in H
  | H : (_ >? _) = true |- _ => rewrite Z.gtb_ltb in H; apply Z.ltb_lt in H
  | H : (_ >? _) = false |- _ => rewrite Z.gtb_ltb in H; apply Z.ltb_ge in H
  | H : (_ >=? _) = true |- _ => rewrite Z.geb_leb in H; apply Z.leb_le in H
  | H : (_ >=? _) = false |- _ => rewrite Z.geb_leb in H; apply Z.leb_gt in H
  end.

(* projections of the setters *)
Ltac proj := cbn [cur sq fifo stack recov filt mbar dbar ed rd dls dbuf derr rbuf fbuf
                  set_chan set_sq set_filt set_mbar set_dbar set_ed set_rd set_dls set_dbuf set_derr set_rbuf set_fbuf] in *.

(* the test "in FIFO mode, only if c" of try_deliver and the l-retrieve branch *)
Lemma fifo_cond : forall f c : bool, f && c || negb f = true -> f = true -> c = true.
Proof. intros f c E F. subst f. cbn in E. rewrite orb_false_r in E. exact E. Qed.

(* f' is f with the entry for k fixed to v, which was free or v already *)
Definition fixes {A} (f f' : tagT -> option A) (k : tagT) (v : A) : Prop :=
  f' k = Some v /\ (f' = f \/ (f k = None /\ f' = updT f k (Some v))).
Lemma fixes_same : forall A (f : tagT -> option A) k v, f k = Some v -> fixes f f k v.
Proof. intros; split; auto. Qed.
Lemma fixes_new : forall A (f : tagT -> option A) k v, f k = None -> fixes f (updT f k (Some v)) k v.
Proof. intros; split; [apply updT_same|auto]. Qed.
Lemma fixes_cases : forall A (f f' : tagT -> option A) k v, fixes f f' k v ->
  forall x, f' x = f x \/ (x = k /\ f x = None /\ f' x = Some v).
Proof.
  intros A f f' k v [E [->|[N ->]]] x; auto. destruct (updT_cases _ f k (Some v) x) as [->|[-> ->]]; auto.
Qed.

(* channel switches never touch the protocol state (filters, counters, payloads, buffers) *)
Definition same_proto (st st' : pst) : Prop :=
  filt st' = filt st /\ ed st' = ed st /\ rd st' = rd st /\ dbar st' = dbar st /\ mbar st' = mbar st /\
  dbuf st' = dbuf st /\ rbuf st' = rbuf st /\ fbuf st' = fbuf st.

Lemma set_chan_same : forall st c s f k r d, same_proto st (set_chan st c s f k r d).
Proof. repeat split. Qed.
Lemma set_id_same : forall st id f, same_proto st (set_id st id f).
Proof. intros. apply set_chan_same. Qed.
Lemma recover_id_same : forall st id f, same_proto st (recover_id st id f).
Proof. intros. unfold recover_id. destruct (recov st id) as [[s d]|]; apply set_chan_same. Qed.
Lemma unset_id_same : forall st f, same_proto st (unset_id st f).
Proof. intros. unfold unset_id. destruct (stack st) as [|[[i s] d] k]; apply set_chan_same. Qed.

Section Party.
Variables (n t skip : Z) (H : Z -> Z) (toolong : tagT -> Z -> bool).
Notation handle := (handle n t H toolong).
Notation buffer_phase := (buffer_phase n skip).
Notation deliver := (deliver n t skip H toolong).
Notation deliver_from := (deliver_from n t skip H toolong).

(* the part of the state the ordering / isolation arguments look at *)
Definition same_chan (a b : pst) : Prop :=
  cur a = cur b /\ sq a = sq b /\ fifo a = fifo b /\ stack a = stack b /\ recov a = recov b /\ fbuf a = fbuf b.

Lemma same_chan_refl : forall a, same_chan a a.
Proof. intros; repeat split. Qed.
Lemma same_chan_trans : forall a b c, same_chan a b -> same_chan b c -> same_chan a c.
Proof. unfold same_chan; intros a b c (?&?&?&?&?&?) (?&?&?&?&?&?); repeat split; congruence. Qed.

Lemma try_deliver_inv : forall st id who s st' r, try_deliver st (id, who, s) = (st', r) ->
  (mbar st (id, who, s) = None /\ st' = st /\ r = RThrow) \/
  (exists v, mbar st (id, who, s) = Some v /\ id = cur st /\ (fifo st = true -> s = dls st who) /\
             st' = set_dls st (updZ (dls st) who (dls st who + 1)) /\ r = RDeliver who (id, who, s) v) \/
  (st' = set_dbuf st (dbuf st ++ [(id, who, s)]) /\ r = RNone).
Proof.
  intros st id who s st' r. unfold try_deliver.
  destruct ((id =? cur st) && (fifo st && (s =? dls st who) || negb (fifo st))) eqn:C.
  - b2p. destruct (mbar st (id, who, s)) as [v|]; intros E; inversion E; auto.
    right; left. exists v. repeat split; auto. intros F. apply Z.eqb_eq. eapply fifo_cond; eauto.
  - intros E; inversion E; auto.
Qed.

(* what the buffer phase may change besides dls / dbuf / derr: only retrieve filters, and only towards true *)
Definition frame (st st' : pst) : Prop :=
  same_chan st st' /\ mbar st' = mbar st /\ dbar st' = dbar st /\ ed st' = ed st /\ rd st' = rd st /\ rbuf st' = rbuf st /\
  (forall k l tg, filt st k l tg = true -> filt st' k l tg = true) /\
  (forall k l tg, filt st' k l tg = true -> filt st k l tg = true \/ k = FRetrieve).

Lemma frame_refl : forall a, frame a a.
Proof. intros; unfold frame; repeat split; auto. Qed.
Lemma frame_trans : forall a b c, frame a b -> frame b c -> frame a c.
Proof.
  unfold frame; intros a b c (S1&?&?&?&?&?&F1&G1) (S2&?&?&?&?&?&F2&G2).
  split; [eapply same_chan_trans; eauto|]. repeat split; try congruence; auto.
  intros k l tg E. destruct (G2 _ _ _ E); auto.
Qed.

Lemma frame_filt_false : forall st st' k l tg, frame st st' -> k <> FRetrieve -> filt st k l tg = false -> filt st' k l tg = false.
Proof.
  intros st st' k l tg (_ & _ & _ & _ & _ & _ & _ & Fi) NK E.
  destruct (filt st' k l tg) eqn:Y; [|reflexivity]. destruct (Fi _ _ _ Y); congruence.
Qed.

Definition all_act6 (l : list (Z * msg)) : Prop := Forall (fun dm => m_act (snd dm) = 6) l.

Lemma act6_or_later : forall sent out dst (x : msg), all_act6 sent -> In (dst, x) (sent ++ out) -> m_act x = 6 \/ In (dst, x) out.
Proof.
  intros sent out dst x A I. apply in_app_or in I. destruct I as [I|I]; [left|right; exact I].
  unfold all_act6 in A. rewrite Forall_forall in A. exact (A _ I).
Qed.

Lemma fset_mono : forall f k l tg k' l' tg', f k' l' tg' = true -> fset f k l tg k' l' tg' = true.
Proof. intros; unfold fset. destruct (_ && _ && _); auto. Qed.
Lemma fset_inv : forall f k l tg k' l' tg', fset f k l tg k' l' tg' = true ->
  f k' l' tg' = true \/ (k' = k /\ l' = l /\ tg' = tg).
Proof.
  intros f k l tg k' l' tg'. unfold fset.
  destruct (fkind_eqb k' k && (l' =? l) && tag_eqb tg' tg) eqn:E; auto.
  intros _. right. apply andb_true_iff in E. destruct E as [E E3]. apply andb_true_iff in E. destruct E as [E1 E2].
  apply Z.eqb_eq in E2. apply tag_eqb_eq in E3. repeat split; auto. destruct k', k; cbn in E1; congruence.
Qed.
Lemma fset_new : forall f k l tg k' l' tg', f k' l' tg' = false -> fset f k l tg k' l' tg' = true ->
  k' = k /\ l' = l /\ tg' = tg.
Proof. intros f k l tg k' l' tg' F0 F1. apply fset_inv in F1. destruct F1; [congruence|assumption]. Qed.
Lemma fset_same : forall f k l tg, fset f k l tg k l tg = true.
Proof. intros; unfold fset. rewrite Z.eqb_refl, tag_eqb_refl. destruct k; reflexivity. Qed.

(* the retrieve loops leave dls and dbuf alone and send only l-retrieve requests *)
Definition quiet (st : pst) (sent : list (Z * msg)) (st' : pst) (sent' : list (Z * msg)) : Prop :=
  frame st st' /\ dls st' = dls st /\ dbuf st' = dbuf st /\ (all_act6 sent -> all_act6 sent').

Lemma quiet_refl : forall st sent, quiet st sent st sent.
Proof. intros; split; [apply frame_refl|auto]. Qed.
Lemma quiet_trans : forall a x b y c z, quiet a x b y -> quiet b y c z -> quiet a x c z.
Proof.
  intros a x b y c z (F1 & D1 & B1 & A1) (F2 & D2 & B2 & A2).
  split; [eapply frame_trans; eauto|]. repeat split; try congruence; auto.
Qed.

Lemma retr_inner_spec : forall me tg m, m_act m = 6 -> forall is st sent cnt st' sent' cnt',
  retr_inner me tg m is st sent cnt = (st', sent', cnt') -> quiet st sent st' sent'.
Proof.
  intros me tg m Hm. induction is as [|i r IH]; intros st sent cnt st' sent' cnt'; cbn [retr_inner].
  - intros E; inversion E; subst. apply quiet_refl.
  - destruct ((i =? me) || filt st FDeliver i tg || filt st FRetrieve i tg); [apply IH|].
    intros E. apply IH in E. eapply quiet_trans; [|exact E].
    split; [|split; [reflexivity|split; [reflexivity|]]].
    + unfold frame; cbn. split; [repeat split|]. repeat split; auto.
      * intros; apply fset_mono; auto.
      * intros k l tg' F. apply fset_inv in F. destruct F as [F|(F&_)]; auto.
    + intros A0. apply Forall_app. split; auto.
Qed.

Lemma retr_loop_spec : forall fuel me who foo mn st sent cnt st' sent' cnt',
  retr_loop n fuel me who foo mn st sent cnt = (st', sent', cnt') -> quiet st sent st' sent'.
Proof.
  induction fuel as [|f IH]; intros me who foo mn st sent cnt st' sent' cnt'; cbn [retr_loop].
  - intros E; inversion E; subst. apply quiet_refl.
  - destruct ((foo <? mn) && (cnt <? 40)); [|intros E; inversion E; subst; apply quiet_refl].
    destruct (retr_inner me (cur st, who, foo) (Msg (cur st) who foo 6 6) (range n) st sent cnt) as [[st1 sent1] cnt1] eqn:R.
    apply retr_inner_spec in R; [|reflexivity]. intros E. apply IH in E. eapply quiet_trans; eauto.
Qed.

Lemma retr_fold_spec : forall me mn ri ws st sent cnt st' sent' cnt',
  fold_left (retr_who n me mn ri) ws (st, sent, cnt) = (st', sent', cnt') -> quiet st sent st' sent'.
Proof.
  intros me mn ri. induction ws as [|w r IH]; intros st sent cnt st' sent' cnt'; cbn [fold_left].
  - intros E; inversion E; subst. apply quiet_refl.
  - unfold retr_who at 2. destruct (ri w); [|apply IH].
    destruct (retr_loop n (Z.to_nat (mn w - dls st w)) me w (dls st w) (mn w) st sent cnt) as [[st1 sent1] cnt1] eqn:R.
    apply retr_loop_spec in R. intros E. apply IH in E. eapply quiet_trans; eauto.
Qed.

Lemma skip_fold_spec : forall mx mn ws st,
  let st' := fold_left (skip_step skip mx mn) ws st in
  frame st st' /\ filt st' = filt st /\ dbuf st' = dbuf st /\ (skip = 0 -> dls st' = dls st).
Proof.
  intros mx mn. induction ws as [|w r IH]; intros st; cbn [fold_left].
  - split; [apply frame_refl|]. auto.
  - specialize (IH (skip_step skip mx mn st w)). cbv zeta in IH. destruct IH as (F & Fi & B & D).
    assert (S: frame st (skip_step skip mx mn st w) /\ filt (skip_step skip mx mn st w) = filt st /\
               dbuf (skip_step skip mx mn st w) = dbuf st /\ (skip = 0 -> dls (skip_step skip mx mn st w) = dls st)).
    { unfold skip_step. destruct (fifo st && (skip >? 0) && (mx w - mn w >? skip)) eqn:C.
      - split; [unfold frame; cbn; split; [repeat split|]; repeat split; auto|]. cbn. repeat split.
        intros Z0. subst skip. rewrite andb_false_r in C. cbn in C. discriminate.
      - split; [apply frame_refl|]. auto. }
    destruct S as (F0 & Fi0 & B0 & D0).
    split; [eapply frame_trans; eauto|]. repeat split; try congruence. intros Z0. rewrite D, D0; auto.
Qed.

Lemma buffer_phase_spec : forall me st st' sent, buffer_phase me st = (st', sent) ->
  frame st st' /\ (skip = 0 -> dls st' = dls st) /\ all_act6 sent /\
  dbuf st' = filter (fun tg => negb (obsolete st tg)) (dbuf st).
Proof.
  intros me st st' sent. unfold RbcModel.buffer_phase.
  destruct (minmax st) as [[mx mn] ri].
  pose proof (skip_fold_spec mx mn (range n) st) as S. cbv zeta in S. destruct S as (F1 & Fi1 & B1 & D1).
  set (st1 := fold_left (skip_step skip mx mn) (range n) st) in *.
  assert (X : forall st2, frame st1 st2 -> frame st (set_dbuf st2 (filter (fun tg => negb (obsolete st tg)) (dbuf st2)))).
  { intros st2 F2. eapply frame_trans; [exact F1|]. eapply frame_trans; [exact F2|].
    unfold frame; cbn. split; [repeat split|]. repeat split; auto. }
  destruct (fifo st && (skip =? 0)).
  - destruct (fold_left (retr_who n me mn ri) (range n) (st1, [], 0)) as [[st2 sent2] c2] eqn:R.
    apply retr_fold_spec in R. destruct R as (F2 & D2 & B2 & A2).
    intros E; inversion E; subst; clear E. split; [apply X; exact F2|]. cbn. rewrite B2, B1, D2.
    split; [exact D1|]. split; [apply A2; constructor|reflexivity].
  - intros E; inversion E; subst; clear E. split; [apply X; apply frame_refl|]. cbn. rewrite B1.
    split; [exact D1|]. split; [constructor|reflexivity].
Qed.

(* The handler by its effects. tg and d stand for the tag and the payload of m. Every case gives the conditions under
   which it is taken, the state after it, the messages sent and the result, with try_deliver resolved. *)
Section Cases.
Variables (me : Z) (st : pst) (l : Z) (m : msg) (tg : tagT) (d : Z).

(* the first message of kind k from l for tg is noted in the filter and has no other effect *)
Definition refused (k : fkind) : Prop :=
  match k with
  | FSend => m_act m = 1 /\ (m_j m <> l \/ exists v, mbar st tg = Some v /\ v <> d)
  | FEcho => m_act m = 2 /\ toolong tg d = true
  | FReady => m_act m = 3 /\ toolong tg d = true
  | FRequest => m_act m = 4 /\ mbar st tg = None
  | FAnswer => m_act m = 5 /\ (dbar st tg = None \/ exists db, dbar st tg = Some db /\ H d <> db)
  | _ => False
  end.

Inductive hcase : pst -> list (Z * msg) -> dres -> Prop :=
| HDrop : hcase st [] RNone
| HFirst k (Fr : filt st k l tg = false) (R : refused k) : hcase (set_filt st (fset (filt st) k l tg)) [] RNone
| HSend mb (A : m_act m = 1) (Fr : filt st FSend l tg = false) (J : 0 <= m_j m < n) (S : 1 <= m_s m) (Jl : m_j m = l)
    (Mb : fixes (mbar st) mb tg d) :
    hcase (set_mbar (set_filt st (fset (filt st) FSend l tg)) mb) (to_all n (Msg (m_id m) (m_j m) (m_s m) 2 (H d))) RNone
| HEcho (A : m_act m = 2) (Fr : filt st FEcho l tg = false) (J : 0 <= m_j m < n) (S : 1 <= m_s m) (L : toolong tg d = false)
    (E : ed st tg d + 1 = n - t) (R : rd st tg d <= t) :
    hcase (set_ed (set_filt st (fset (filt st) FEcho l tg)) (upd2 (ed st) tg d (ed st tg d + 1)))
          (to_all n (Msg (m_id m) (m_j m) (m_s m) 3 d)) RNone
| HEchoQuiet (A : m_act m = 2) (Fr : filt st FEcho l tg = false) (L : toolong tg d = false)
    (E : ed st tg d + 1 = n - t -> t < rd st tg d) :
    hcase (set_ed (set_filt st (fset (filt st) FEcho l tg)) (upd2 (ed st) tg d (ed st tg d + 1))) [] RNone
| HReady (A : m_act m = 3) (Fr : filt st FReady l tg = false) (J : 0 <= m_j m < n) (S : 1 <= m_s m) (L : toolong tg d = false)
    (T : 0 < t) (R : rd st tg d = t) (E : ed st tg d < n - t) :
    hcase (set_rd (set_filt st (fset (filt st) FReady l tg)) (upd2 (rd st) tg d (rd st tg d + 1)))
          (to_all n (Msg (m_id m) (m_j m) (m_s m) 3 d)) RNone
| HReadyQuiet (A : m_act m = 3) (Fr : filt st FReady l tg = false) (L : toolong tg d = false)
    (E : 0 < t -> rd st tg d = t -> n - t <= ed st tg d)
    (R : rd st tg d <> 2 * t \/ exists db, dbar st tg = Some db /\ db <> d) :
    hcase (set_rd (set_filt st (fset (filt st) FReady l tg)) (upd2 (rd st) tg d (rd st tg d + 1))) [] RNone
| HReadyRequest db (A : m_act m = 3) (Fr : filt st FReady l tg = false) (J : 0 <= m_j m < n) (S : 1 <= m_s m)
    (L : toolong tg d = false) (R : rd st tg d = 2 * t) (Db : fixes (dbar st) db tg d)
    (Hm : match mbar st tg with Some v => H v | None => 0 end <> d) :
    hcase (set_dbar (set_rd (set_filt st (fset (filt st) FReady l tg)) (upd2 (rd st) tg d (rd st tg d + 1))) db)
          (map (fun i => (i, Msg (m_id m) (m_j m) (m_s m) 4 d)) (map Z.of_nat (seq 0 (Z.to_nat (2 * t + 1))))) RNone
| HReadyThrow db (A : m_act m = 3) (Fr : filt st FReady l tg = false) (L : toolong tg d = false) (R : rd st tg d = 2 * t)
    (Db : fixes (dbar st) db tg d) (Hm : match mbar st tg with Some v => H v | None => 0 end = d) (Mb : mbar st tg = None) :
    hcase (set_dbar (set_rd (set_filt st (fset (filt st) FReady l tg)) (upd2 (rd st) tg d (rd st tg d + 1))) db) [] RThrow
| HReadyDeliver db v (A : m_act m = 3) (Fr : filt st FReady l tg = false) (L : toolong tg d = false) (R : rd st tg d = 2 * t)
    (Db : fixes (dbar st) db tg d) (Hm : match mbar st tg with Some v => H v | None => 0 end = d) (Mb : mbar st tg = Some v)
    (C : m_id m = cur st) (Q : fifo st = true -> m_s m = dls st (m_j m)) :
    hcase (set_dls (set_dbar (set_rd (set_filt st (fset (filt st) FReady l tg)) (upd2 (rd st) tg d (rd st tg d + 1))) db)
                   (updZ (dls st) (m_j m) (dls st (m_j m) + 1))) [] (RDeliver (m_j m) tg v)
| HReadyBuffer db (A : m_act m = 3) (Fr : filt st FReady l tg = false) (L : toolong tg d = false) (R : rd st tg d = 2 * t)
    (Db : fixes (dbar st) db tg d) (Hm : match mbar st tg with Some v => H v | None => 0 end = d) :
    hcase (set_dbuf (set_dbar (set_rd (set_filt st (fset (filt st) FReady l tg)) (upd2 (rd st) tg d (rd st tg d + 1))) db)
                    (dbuf st ++ [tg])) [] RNone
| HRequestAnswered v (A : m_act m = 4) (Fr : filt st FRequest l tg = false) (J : 0 <= m_j m < n) (S : 1 <= m_s m)
    (Mb : mbar st tg = Some v) :
    hcase (set_filt st (fset (filt st) FRequest l tg)) [(l, Msg (m_id m) (m_j m) (m_s m) 5 v)] RNone
| HAnswerDeliver (A : m_act m = 5) (Fr : filt st FAnswer l tg = false) (Db : dbar st tg = Some (H d))
    (C : m_id m = cur st) (Q : fifo st = true -> m_s m = dls st (m_j m)) :
    hcase (set_dls (set_mbar (set_filt st (fset (filt st) FAnswer l tg)) (updT (mbar st) tg (Some d)))
                   (updZ (dls st) (m_j m) (dls st (m_j m) + 1))) [] (RDeliver (m_j m) tg d)
| HAnswerBuffer (A : m_act m = 5) (Fr : filt st FAnswer l tg = false) (Db : dbar st tg = Some (H d)) :
    hcase (set_dbuf (set_mbar (set_filt st (fset (filt st) FAnswer l tg)) (updT (mbar st) tg (Some d))) (dbuf st ++ [tg])) [] RNone
| HRetrieve v (A : m_act m = 6) (J : 0 <= m_j m < n) (S : 1 <= m_s m) (Mb : mbar st tg = Some v)
    (Q : fifo st = true -> m_s m < dls st (m_j m)) :
    hcase st [(l, Msg (m_id m) (m_j m) (m_s m) 7 v)] RNone
| HRetrieveFail (A : m_act m = 6) (J : 0 <= m_j m < n) (S : 1 <= m_s m) :
    hcase st [(l, Msg (m_id m) (m_j m) (m_s m) 8 8)] RNone
| HLDeliver (A : m_act m = 7) (Fr : filt st FDeliver l tg = false) (Rt : filt st FRetrieve l tg = true) :
    hcase (set_rbuf (set_filt st (fset (filt st) FDeliver l tg)) (upd2 (rbuf st) tg l d)) [] RNone
| HAgreeDeliver i x (A : m_act m = 7) (Fr : filt st FDeliver l tg = false) (Rt : filt st FRetrieve l tg = true)
    (Ag : agree_find n t me (set_rbuf (set_filt st (fset (filt st) FDeliver l tg)) (upd2 (rbuf st) tg l d)) tg = Some i)
    (X : x = upd2 (rbuf st) tg l d tg i) (C : m_id m = cur st) (Q : fifo st = true -> m_s m = dls st (m_j m)) :
    hcase (set_dls (set_mbar (set_rbuf (set_filt st (fset (filt st) FDeliver l tg)) (upd2 (rbuf st) tg l d))
                             (updT (mbar st) tg (Some x)))
                   (updZ (dls st) (m_j m) (dls st (m_j m) + 1))) [] (RDeliver (m_j m) tg x)
| HAgreeBuffer i x (A : m_act m = 7) (Fr : filt st FDeliver l tg = false) (Rt : filt st FRetrieve l tg = true)
    (Ag : agree_find n t me (set_rbuf (set_filt st (fset (filt st) FDeliver l tg)) (upd2 (rbuf st) tg l d)) tg = Some i)
    (X : x = upd2 (rbuf st) tg l d tg i) :
    hcase (set_dbuf (set_mbar (set_rbuf (set_filt st (fset (filt st) FDeliver l tg)) (upd2 (rbuf st) tg l d))
                              (updT (mbar st) tg (Some x)))
                    (dbuf st ++ [tg])) [] RNone.
End Cases.

(* handle is a cascade of range checks, the test on the action code, the first-time filter of that kind, and then one
   or two tests per kind; `break` opens all of them, and every surviving path is one of the 19 constructors: dropped early
   (HDrop), filter set and refused (HFirst, five kinds), or the kind's own cases. The tail only matches each path with its
   constructor and discharges the side conditions by assumption, lia and fixes_same / fixes_new. *)
Lemma handle_inv : forall me st l m st' out r, handle me st l m = (st', out, r) ->
  hcase me st l m (mtag m) (m_pay m) st' out r.
Proof.
  intros me st l m st' out r. unfold RbcModel.handle, stop. cbv zeta.
  break; intros E; injection E as <- <- <-;
  try match goal with Htd : try_deliver _ _ = _ |- _ =>
    apply (try_deliver_inv _ (m_id m) (m_j m) (m_s m)) in Htd;
    destruct Htd as [(? & -> & ->)|[(? & ? & ? & ? & -> & ->)|(-> & ->)]]; fold (mtag m) in * end;
  try match goal with Hx : _ && _ || negb _ = true |- _ => pose proof (fifo_cond _ _ Hx) end;
  proj; b2p; subst.
  (* `break` has split the digest comparison of the r-ready branch twice *)
  all: try (exfalso; congruence).
  all: try match goal with Hx : updT _ _ _ _ = _ |- _ => rewrite updT_same in Hx; first [discriminate|injection Hx as <-] end.
  all: first [ apply HDrop | eapply HFirst | eapply HSend | eapply HEcho | eapply HEchoQuiet | eapply HReady | eapply HReadyQuiet
             | eapply HReadyRequest | eapply HReadyThrow | eapply HReadyDeliver | eapply HReadyBuffer | eapply HRequestAnswered
             | eapply HAnswerDeliver | eapply HAnswerBuffer | eapply HRetrieve | eapply HRetrieveFail | eapply HLDeliver
             | eapply HAgreeDeliver | eapply HAgreeBuffer ];
       try first [ eassumption | reflexivity | lia | apply fixes_same; congruence | apply fixes_new; assumption ].
  all: first [ apply fixes_same; assumption | intros F; apply Z.ltb_lt; auto | cbn; eauto 6 ].
Qed.

(* the handler stays on the channel; a delivery is for the current channel, in FIFO mode for the next sequence number *)
Definition handle_res_ok (st st' : pst) (r : dres) : Prop :=
  match r with
  | RDeliver who tg v =>
      (exists s, tg = (cur st, who, s) /\ (fifo st = true -> s = dls st who)) /\
      dls st' = updZ (dls st) who (dls st who + 1)
  | _ => dls st' = dls st
  end.

Lemma handle_spec : forall me st l m st' sent r, handle me st l m = (st', sent, r) -> same_chan st st' /\ handle_res_ok st st' r.
Proof.
  intros me st l m st' sent r HH. apply handle_inv in HH.
  destruct HH; (split; [repeat split|]); cbn; auto; split; auto;
  exists (m_s m); rewrite <- C; auto.
Qed.

Lemma split_first_spec : forall p l pre a x b, split_first p pre l = Some (a, x, b) ->
  p x = true /\ rev pre ++ l = a ++ x :: b.
Proof.
  intros p. induction l as [|y r IH]; intros pre a x b; cbn [split_first].
  - discriminate.
  - destruct (p y) eqn:P.
    + intros E; inversion E; subst. auto.
    + intros E. apply IH in E. destruct E as [E1 E2]. split; auto. rewrite <- E2. cbn. rewrite <- app_assoc. reflexivity.
Qed.

(* one call of Deliver by cases: a buffered slot has become deliverable (its payload missing or not), or the buffer
   phase runs and a message, if one is offered, is handled *)
Inductive dcase (me : Z) (st : pst) : option (Z * msg) -> outc -> Prop :=
| DThrow off tg (I : In tg (dbuf st)) (M : mbar st tg = None) : dcase me st off (Outc st [] RThrow false)
| DBuffered off pre who s post v (B : dbuf st = pre ++ (cur st, who, s) :: post)
    (Q : fifo st = true -> s = dls st who) (M : mbar st (cur st, who, s) = Some v) :
    dcase me st off (Outc (set_dbuf (set_dls st (updZ (dls st) who (dls st who + 1))) (pre ++ post)) []
                          (RDeliver who (cur st, who, s) v) false)
| DIdle st1 sent1 (BP : buffer_phase me st = (st1, sent1)) : dcase me st None (Outc st1 sent1 RNone false)
| DRecv l m st1 sent1 st2 sent2 r (BP : buffer_phase me st = (st1, sent1)) (HH : handle me st1 l m = (st2, sent2, r)) :
    dcase me st (Some (l, m)) (Outc st2 (sent1 ++ sent2) r true).

Lemma deliver_inv : forall me st offer, dcase me st offer (deliver me st offer).
Proof.
  intros me st offer. unfold RbcModel.deliver.
  destruct (split_first (deliverable st) [] (dbuf st)) as [[[pre [[id who] s]] post]|] eqn:SF.
  - apply split_first_spec in SF. destruct SF as [D SF]. cbn [rev app] in SF. unfold deliverable in D.
    apply andb_true_iff in D. destruct D as [D1 D2]. apply Z.eqb_eq in D1. subst id.
    destruct (mbar st (cur st, who, s)) eqn:M.
    + apply DBuffered; auto. intros F. apply Z.eqb_eq. eapply fifo_cond; eauto.
    + eapply DThrow; eauto. rewrite SF. apply in_elt.
  - destruct (buffer_phase me st) as [st1 sent1] eqn:BP. destruct offer as [[l m]|].
    + destruct (handle me st1 l m) as [[st2 sent2] r] eqn:HH. eapply DRecv; eauto.
    + apply DIdle. exact BP.
Qed.

(* DeliverFrom does nothing, or is Deliver, up to the per-sender buffers: whatever holds of an idle call and of Deliver and does
   not look at fbuf holds of it *)
Lemma deliver_from_lift : forall (R : pst -> list (Z * msg) -> dres -> Prop) me st i off,
  (forall st' x out r, R st' out r -> R (set_fbuf st' x) out r) -> R st [] RNone ->
  (let d := deliver me st off in R (o_st d) (o_sent d) (o_res d)) ->
  let o := fst (deliver_from me st i off) in R (o_st o) (o_sent o) (o_res o).
Proof.
  intros R me st i off Fb Idle D. remember (deliver_from me st i off) as ov eqn:E. unfold RbcModel.deliver_from in E.
  destruct ((i <? 0) || (i >=? n)); [subst ov; exact Idle|].
  destruct (take_chan (cur st) [] (fbuf st i)) as [[v rest]|]; [subst ov; apply Fb; exact Idle|].
  cbv zeta in D. destruct (o_res (deliver me st off)) eqn:Er; subst ov; cbn; rewrite ?Er; auto.
Qed.

(* the result of one call of Deliver; the guards skip = 0: with fifo_skip > 0 the buffer phase may move dls (skip_step) *)
Definition deliver_res_ok (st st' : pst) (r : dres) : Prop :=
  match r with
  | RDeliver who tg v =>
      (exists s, tg = (cur st, who, s) /\ (fifo st = true -> dls st' who = s + 1) /\
                 (fifo st = true -> skip = 0 -> s = dls st who)) /\
      (skip = 0 -> dls st' = updZ (dls st) who (dls st who + 1))
  | _ => skip = 0 -> dls st' = dls st
  end.
Lemma deliver_spec : forall me st offer,
  let o := deliver me st offer in same_chan st (o_st o) /\ deliver_res_ok st (o_st o) (o_res o).
Proof.
  intros me st offer. destruct (deliver_inv me st offer); unfold deliver_res_ok; cbn.
  - split; [apply same_chan_refl|]. auto.
  - split; [repeat split|]. split; [|auto].
    exists s. split; [reflexivity|]. split; [|auto]. intros F. rewrite updZ_same, (Q F). reflexivity.
  - apply buffer_phase_spec in BP. destruct BP as ((Sc & _) & D & _). auto.
  - apply buffer_phase_spec in BP. destruct BP as ((Sc & _) & D & _).
    apply handle_spec in HH. destruct HH as [Sc2 R]. split; [eapply same_chan_trans; eauto|].
    destruct Sc as (C1 & _ & C3 & _). destruct r; cbn in R; try (intros Z0; rewrite R; auto).
    destruct R as ((s & E & Fs) & Dl). rewrite C1, C3. split.
    + exists s. split; [exact E|]. split.
      * intros F. rewrite Dl, updZ_same, (Fs F). reflexivity.
      * intros F Z0. rewrite (Fs F), (D Z0). reflexivity.
    + intros Z0. rewrite Dl, (D Z0). reflexivity.
Qed.

End Party.
